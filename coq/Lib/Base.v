(* Base definitions shared by the model of mna/pigeon.
   Bytes are [N] (< 256 by well-formedness), runes are [Z] (Go's int32),
   byte strings are [list N].  Offsets and lengths are [nat]. *)
From Coq Require Export List NArith ZArith Bool Lia Arith.
Export ListNotations.

Definition byte := N.
Definition bytes := list N.
Definition rune := Z.

Definition RuneError : rune := 65533%Z.

Fixpoint bytes_eqb (a b : bytes) : bool :=
  match a, b with
  | [], [] => true
  | x :: a', y :: b' => N.eqb x y && bytes_eqb a' b'
  | _, _ => false
  end.

Lemma bytes_eqb_eq a b : bytes_eqb a b = true <-> a = b.
Proof.
  revert b; induction a as [|x a IH]; intros [|y b]; simpl; split; intro H;
    try congruence.
  - apply andb_true_iff in H as [H1 H2]. apply N.eqb_eq in H1. apply IH in H2. congruence.
  - inversion H; subst. rewrite N.eqb_refl. apply IH. reflexivity.
Qed.

Lemma bytes_eqb_refl a : bytes_eqb a a = true.
Proof. apply bytes_eqb_eq; reflexivity. Qed.

(* List.skipn_skipn of later releases of the standard library *)
Lemma skipn_skipn' {A} (n m : nat) (l : list A) : skipn n (skipn m l) = skipn (m + n) l.
Proof.
  revert l; induction m as [|m IH]; [reflexivity|].
  destruct l as [|x l]; [destruct n; reflexivity|]. apply IH.
Qed.

Lemma list_ind2 {A} (P : list A -> Prop) :
  P [] -> (forall x, P [x]) -> (forall x y l, P l -> P (x :: y :: l)) -> forall l, P l.
Proof.
  intros H0 H1 H2. fix IH 1. intros [|x [|y l]]; [exact H0 | apply H1 | apply H2, IH].
Qed.

Lemma existsb_map {A B} (p : B -> bool) (f : A -> B) l : existsb p (map f l) = existsb (fun x => p (f x)) l.
Proof. induction l as [|x l IH]; cbn [map existsb]; [reflexivity | rewrite IH; reflexivity]. Qed.

Lemma fold_left_inv {A B} (P : A -> Prop) (f : A -> B -> A) l :
  (forall a x, In x l -> P a -> P (f a x)) -> forall a, P a -> P (fold_left f l a).
Proof.
  induction l as [|x l IH]; cbn; intros Hf a Ha; [exact Ha | apply IH; auto].
Qed.

(* Bytewise lexicographic order: Go's string comparison (sort.Strings). *)
Fixpoint bytes_leb (a b : bytes) : bool :=
  match a, b with
  | [], _ => true
  | _ :: _, [] => false
  | x :: a', y :: b' =>
      if N.ltb x y then true else if N.eqb x y then bytes_leb a' b' else false
  end.

(* Insertion sort: same result as any stable or unstable sort on a total order
   up to equal elements, which for byte strings are identical. *)
Fixpoint insert_sorted (x : bytes) (l : list bytes) : list bytes :=
  match l with
  | [] => [x]
  | y :: l' => if bytes_leb x y then x :: l else y :: insert_sorted x l'
  end.

Definition sort_bytes (l : list bytes) : list bytes :=
  fold_right insert_sorted [] l.

Fixpoint mem_bytes (x : bytes) (l : list bytes) : bool :=
  match l with
  | [] => false
  | y :: l' => bytes_eqb x y || mem_bytes x l'
  end.

Fixpoint nodup_bytes (l : list bytes) : list bytes :=
  match l with
  | [] => []
  | x :: l' => if mem_bytes x l' then nodup_bytes l' else x :: nodup_bytes l'
  end.

Lemma mem_bytes_iff x l : mem_bytes x l = true <-> In x l.
Proof.
  induction l as [|y l IH]; cbn; [split; [discriminate|contradiction]|].
  rewrite orb_true_iff, IH, bytes_eqb_eq. split; intros [E|E]; auto.
Qed.

Lemma nodup_bytes_In x l : In x (nodup_bytes l) -> In x l.
Proof.
  induction l as [|y l IH]; cbn; [auto|]. destruct (mem_bytes y l); cbn; tauto.
Qed.

(* ASCII literal helper: Coq string -> bytes, for constant messages, names and the texts of witnesses. *)
From Coq Require Import String Ascii.
Fixpoint bytes_of_string (s : string) : bytes :=
  match s with
  | EmptyString => []
  | String c s' => N_of_ascii c :: bytes_of_string s'
  end.

(* Decimal printing (strconv.Itoa / %d for non-negative numbers). *)
Fixpoint dec_digits (fuel : nat) (n : N) (acc : bytes) : bytes :=
  match fuel with
  | O => acc
  | S f =>
      let d := (48 + N.modulo n 10)%N in
      let q := N.div n 10 in
      if N.eqb q 0 then d :: acc else dec_digits f q (d :: acc)
  end.

Definition dec_N (n : N) : bytes := dec_digits (S (N.to_nat (N.log2 n))) n [].
Definition dec_nat (n : nat) : bytes := dec_N (N.of_nat n).

Definition dec_Z (z : Z) : bytes :=
  match z with
  | Z0 => [48%N]
  | Zpos p => dec_N (Npos p)
  | Zneg p => 45%N :: dec_N (Npos p)
  end.

Fixpoint alookup {A} (k : bytes) (l : list (bytes * A)) : option A :=
  match l with
  | [] => None
  | (k', v) :: l' => if bytes_eqb k k' then Some v else alookup k l'
  end.

Fixpoint aset {A} (k : bytes) (v : A) (l : list (bytes * A)) : list (bytes * A) :=
  match l with
  | [] => [(k, v)]
  | (k', v') :: l' => if bytes_eqb k k' then (k, v) :: l' else (k', v') :: aset k v l'
  end.

Fixpoint concat_sep (sep : bytes) (l : list bytes) : bytes :=
  match l with
  | [] => []
  | [x] => x
  | x :: l' => x ++ sep ++ concat_sep sep l'
  end.
