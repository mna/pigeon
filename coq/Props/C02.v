(* C02 - Code blocks observe the true match context (text, pos, labels). *)
From PV Require Import Lib.Base Syntax.RGrammar Syntax.Code Model.PState Spec.Pos Model.Runtime Spec.Ref Spec.RefParse
  Proofs.ReadProofs Proofs.PosProofs Proofs.Inv Proofs.Sim Proofs.TopLevel Proofs.Corollaries Proofs.RefLaws.

(* line, col, offset are a pure function of the input and the byte offset: every save
   point reached by scanning equals save_at data offset, however it was reached *)
Theorem C02_position_is_function_of_offset : forall d p q,
  reach d p -> reach d q -> offset (sp_pos p) = offset (sp_pos q) -> p = q.
Proof. exact reach_functional. Qed.
Print Assumptions C02_position_is_function_of_offset.

Theorem C02_position_def : forall d p, reach d p -> sp_pos p = pos_of d (offset (sp_pos p)).
Proof. exact reach_pos_of. Qed.
Print Assumptions C02_position_def.

(* the rune and width under the cursor are those of the input at that offset, and the offset lies within the
   input (sp_ok), after any amount of backtracking and memoised skipping (all template variants, memo on or off) *)
Theorem C02_cursor_coherent : forall c fuel e s r s',
  I c s -> parseExprWrap c fuel e s = Ok r s' -> sp_ok (cData c) (pt s').
Proof. exact savepoint_coherent. Qed.
Print Assumptions C02_cursor_coherent.

(* every code-block invocation of the implementation model - also on alternatives
   later abandoned - is, in order, an invocation of the specification with the same
   block and the same context (for predicate and state blocks: the same labels, store and
   globalStore; c.text and c.pos are not compared, they differ under the stale-context
   quirk, where stale_ok asks that these blocks ignore them) *)
Theorem C02_trace_is_ref_trace : forall c,
  state_ok c -> o_memoize (cO c) = false -> G_wf c -> stale_ok c -> t_leftrec (cT c) = false ->
  forall fuel,
  match parse c fuel, rparse c fuel with
  | Returned _ _ s, RReturned _ _ m | Panicked _ s, RPanicked _ m =>
      Forall2 (ev_eqv) (trace s) (blocks_of_log (u_log m))
  | Diverged, RDiverged => True
  | _, _ => False
  end.
Proof.
  intros c H1 H2 H3 H4 H5 fuel. generalize (parse_refines_rparse c H1 H2 H3 H4 H5 fuel).
  destruct (parse c fuel), (rparse c fuel); intros Ho; apply Ho.
Qed.
Print Assumptions C02_trace_is_ref_trace.

(* in the specification an action whose expression has matched runs, and
   sees: text = the matched bytes, pos = the match start, its labels = the scope *)
Theorem C02_ref_action_context : forall (c : rdata) ev n H R inv nid id e sc g m g1 sc1 m1 v0,
  ev H R inv e sc g m = ROk v0 g1 sc1 m1 ->
  let x := block_ctx_ref c id (slice c (g_off g) (g_off g1)) (pos_of (rData c) (g_off g)) sc1 g1 m1 in
  match ce_act (rE c) id x with
  | CbRet r err st' gs' =>
      exists m2, reval_body c ev n H R inv (EAct nid id e) sc g m = ROk r g1 sc1 m2 /\ u_gs m2 = gs'
  | CbPanic pv st' gs' =>
      exists m2, reval_body c ev n H R inv (EAct nid id e) sc g m = RPanic pv m2 (pos_of (rData c) (g_off g1)) R
  end.
Proof. exact act_context. Qed.
Print Assumptions C02_ref_action_context.

Theorem C02_ref_label_binding : forall (c : rdata) ev n H R inv nid l e sc g m v g' sc' m',
  reval_body c ev n H R inv (ELab nid l e) sc g m = ROk v g' sc' m' -> sc' = bind_scope l v sc.
Proof. exact lab_binds. Qed.
Print Assumptions C02_ref_label_binding.
