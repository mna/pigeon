(* C01 - Generated parsers implement PEG matching and the documented value shapes. *)
From PV Require Import Lib.Base Syntax.RGrammar Model.PState Model.Runtime Spec.Ref Spec.RefParse Proofs.Inv
  Proofs.Sim Proofs.SimFinal Proofs.TopLevel Proofs.Corollaries Proofs.RefLaws.

(* Parse (model of the generated parser: any template variant without left-recursion support,
   with a state store or, when no code block touches the store, without one; default
   Memoize(false); grammar without left-recursive rules) returns exactly what the PEG
   specification Ref returns: same success/failure, same value, same errors, same globalStore,
   same expression count, same code-block trace.  Hypotheses name the quirks of the
   pinned tree: G_wf (no literal U+FFFD unless q_lit_eof is off, Basic-Latin tables agree
   with the general procedure, recovery expressions scope-closed unless q_recover_scope
   is off) and stale_ok (predicate context). *)
Theorem C01_refines_ref : forall c,
  state_ok c -> o_memoize (cO c) = false -> G_wf c -> stale_ok c -> t_leftrec (cT c) = false ->
  forall fuel, obs_equiv (parse c fuel) (rparse c fuel).
Proof. exact parse_refines_rparse. Qed.
Print Assumptions C01_refines_ref.

(* expression level, every one of the 18 kinds *)
Theorem C01_refines_ref_expr : forall c,
  state_ok c -> o_memoize (cO c) = false -> G_wf c -> stale_ok c -> t_leftrec (cT c) = false ->
  forall fuel, sim_spec c (parseExprWrap c fuel) (reval c fuel).
Proof. exact impl_refines_ref. Qed.
Print Assumptions C01_refines_ref_expr.

(* an expression that fails consumes nothing - unconditionally: every template
   variant, Memoize on or off, with or without left recursion, every quirk setting *)
Theorem C01_fail_consumes_nothing : forall c fuel e s v s',
  I c s -> parseExprWrap c fuel e s = Ok (v, false) s' ->
  cur_off s' = cur_off s /\ (has_state (cT c) = true -> st s' = st s).
Proof. exact fail_consumes_nothing. Qed.
Print Assumptions C01_fail_consumes_nothing.

(* the specification is PEG: ordered choice ... *)
Theorem C01_ref_choice : forall ev H R inv a rest sc g m,
  (forall v g' sc' m', ev H R inv a [] g m = ROk v g' sc' m' ->
     ralt ev H R inv (a :: rest) sc g m = ROk v g' sc m') /\
  (forall m', ev H R inv a [] g m = RFail m' ->
     ralt ev H R inv (a :: rest) sc g m = ralt ev H R inv rest sc g m').
Proof. split; [eapply alt_first_match | eapply alt_next]; eauto. Qed.
Print Assumptions C01_ref_choice.

(* ... greedy repetition with one value per iteration ... *)
Theorem C01_ref_repetition : forall ev H R inv e k acc g m,
  (forall v g' sc' m', ev H R inv e [] g m = ROk v g' sc' m' ->
     rrep ev H R inv (S k) e acc g m = rrep ev H R inv k e (v :: acc) g' m') /\
  (forall m', ev H R inv e [] g m = RFail m' ->
     rrep ev H R inv (S k) e acc g m = RepDone (rev acc) g m').
Proof. split; [eapply rep_unfold_ok | eapply rep_unfold_stop]; eauto. Qed.
Print Assumptions C01_ref_repetition.

(* ... predicates consume nothing and yield nil ... *)
Theorem C01_ref_predicates : forall (c : rdata) ev n H R inv nid e sc g m v g' sc' m',
  (reval_body c ev n H R inv (EAnd nid e) sc g m = ROk v g' sc' m' -> v = VNil /\ g' = g /\ sc' = sc) /\
  (reval_body c ev n H R inv (ENot nid e) sc g m = ROk v g' sc' m' -> v = VNil /\ g' = g /\ sc' = sc).
Proof. split; [apply and_consumes_nothing | apply not_consumes_nothing]. Qed.
Print Assumptions C01_ref_predicates.

(* ... terminals return exactly the matched input bytes ... *)
Theorem C01_ref_terminal_values : forall (c : rdata) ev n H R inv nid sc g m v g' sc' m',
  reval_body c ev n H R inv (EAny nid) sc g m = ROk v g' sc' m' ->
  v = VBytes (slice c (g_off g) (g_off g')) /\ g_st g' = g_st g /\ sc' = sc /\ g_off g < g_off g'.
Proof. exact any_value. Qed.
Print Assumptions C01_ref_terminal_values.

Theorem C01_ref_class_values : forall (c : rdata) ev n H R inv nid cv chars ranges classes ic cinv tb sc g m v g' sc' m',
  reval_body c ev n H R inv (ECls nid cv chars ranges classes ic cinv tb) sc g m = ROk v g' sc' m' ->
  v = VBytes (slice c (g_off g) (g_off g')) /\ g_st g' = g_st g /\ sc' = sc /\
  class_decide (rU c) chars ranges classes ic cinv (fst (rune_at c (g_off g))) = true.
Proof. exact cls_value. Qed.
Print Assumptions C01_ref_class_values.

(* ... a sequence has one element per item, e? never fails *)
Theorem C01_ref_sequence_shape : forall ev H R inv es acc sc g m v g' sc' m',
  rseq ev H R inv es acc sc g m = ROk v g' sc' m' ->
  exists vs, v = VList (rev acc ++ vs) /\ length vs = length es.
Proof. exact seq_values. Qed.
Print Assumptions C01_ref_sequence_shape.

Theorem C01_ref_optional : forall (c : rdata) ev n H R inv nid e sc g m m',
  reval_body c ev n H R inv (EOpt nid e) sc g m <> RFail m'.
Proof. exact opt_never_fails. Qed.
Print Assumptions C01_ref_optional.
