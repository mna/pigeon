(* C17 - Invalid UTF-8 is reported by default and matched bytewise when allowed. *)
From PV Require Import Lib.Base Lib.Utf8 Syntax.RGrammar Model.PState Model.Runtime
  Proofs.Utf8Proofs Proofs.ReadProofs.

(* The decoder of the model (= utf8.DecodeRune, validated exhaustively on short
   prefixes by the harness) maps every scalar value's encoding to that value ... *)
Theorem C17_decode_roundtrip : forall r rest,
  scalar r -> decode (encode r ++ rest) = (r, length (encode r)).
Proof. exact decode_encode. Qed.
Print Assumptions C17_decode_roundtrip.

(* ... accepts nothing else (no overlongs, surrogates, > U+10FFFF, truncations) ... *)
Theorem C17_decode_sound : forall bs r w,
  decode bs = (r, w) -> w <> 0 -> ~ (r = RuneError /\ w = 1) ->
  scalar r /\ firstn w bs = encode r.
Proof. exact decode_sound. Qed.
Print Assumptions C17_decode_sound.

(* ... and treats each byte that starts no valid sequence as a one-byte U+FFFD. *)
Theorem C17_invalid_byte_is_one_byte_FFFD : forall bs,
  decode bs = (RuneError, 1) <-> invalid_at bs.
Proof. exact decode_invalid_iff. Qed.
Print Assumptions C17_invalid_byte_is_one_byte_FFFD.

Theorem C17_width_zero_iff_eof : forall bs, snd (decode bs) = 0 <-> bs = [].
Proof. exact decode_width_zero. Qed.
Print Assumptions C17_width_zero_iff_eof.

(* read: the current rune/width are DecodeRune of data[offset:], offsets count bytes *)
Theorem C17_read : forall c s,
  sp_ok (cData c) (pt s) ->
  sp_ok (cData c) (pt (read c s)) /\
  offset (sp_pos (pt (read c s))) = offset (sp_pos (pt s)) + sp_w (pt s).
Proof. split; [exact (read_sp_ok c s (proj1 H) (sp_ok_width _ _ H)) | exact (proj1 (proj2 (read_pt c s)))]. Qed.
Print Assumptions C17_read.

(* advancing onto an invalid byte adds exactly one 'invalid encoding' error at its
   position unless AllowInvalidUTF8 is set; nothing is added otherwise *)
Theorem C17_error : forall c s,
  let rest' := skipn (sp_w (pt s)) (sp_rest (pt s)) in
  (decode rest' = (RuneError, 1) /\ o_allowinvalid (cO c) = false /\
     exists e, errs (read c s) = errs s ++ [e] /\ pe_msg e = msg_invalid_encoding /\
               pe_pos e = sp_pos (pt (read c s)))
  \/ ((decode rest' <> (RuneError, 1) \/ o_allowinvalid (cO c) = true) /\ errs (read c s) = errs s).
Proof. exact read_errs. Qed.
Print Assumptions C17_error.

Theorem C17_valid_replacement_char_is_not_invalid : forall rest,
  decode ([239%N; 191%N; 189%N] ++ rest) = (RuneError, 3).
Proof. exact decode_valid_replacement. Qed.
Print Assumptions C17_valid_replacement_char_is_not_invalid.
