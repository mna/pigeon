(* C04: every accepted grammar yields Go code that compiles - the part a theorem can carry: the
   naming of code-block methods.  A code block becomes the method "on<Rule><index>"; two blocks get
   the same name only if they are the same (rule, index) pair - provided no rule name ends in a
   digit.  With a rule name ending in a digit the statement is false (witness), which is a genuine
   defect of the generator: the emitted file declares a method twice and does not compile.
   Compilation, vet and package initialisation of emitted files, and the parameters of each method,
   are decided by execution (DESIGN.md). *)
From PV Require Import Lib.Base Model.Methods.
From Coq Require Import String.

Lemma digits_after_name y k : forallb is_digit k = true -> no_trailing_digit (y ++ k) = true -> k = [].
Proof.
  destruct k as [|d k _] using rev_ind; [reflexivity|].
  unfold no_trailing_digit. rewrite forallb_app, app_assoc, rev_unit. cbn [forallb].
  intros [_ Hd]%andb_true_iff. rewrite andb_true_r in Hd. rewrite Hd. discriminate.
Qed.

(* a byte string splits in one way only into a part that does not end in a digit and a run of digits:
   the pairing (name, numeral) |-> name ++ numeral is injective.  Of two such splittings one name extends
   the other by the head of the other's numeral. *)
Lemma name_digits_unique (x y l1 l2 : bytes) :
  forallb is_digit l1 = true -> forallb is_digit l2 = true ->
  no_trailing_digit x = true -> no_trailing_digit y = true ->
  x ++ l1 = y ++ l2 -> x = y /\ l1 = l2.
Proof.
  intros H1 H2 Nx Ny [k [[-> ->]|[-> ->]]]%app_eq_app.
  - rewrite forallb_app in H2. apply andb_true_iff in H2 as [Hk _].
    rewrite (digits_after_name y k), app_nil_r by assumption. auto.
  - rewrite forallb_app in H1. apply andb_true_iff in H1 as [Hk _].
    rewrite (digits_after_name x k), app_nil_r by assumption. auto.
Qed.

Theorem C04_method_names_distinct :
  forall (itoa : nat -> bytes),
    (forall a b, itoa a = itoa b -> a = b) -> (forall a, forallb is_digit (itoa a) = true) ->
    forall r1 r2 i1 i2,
      no_trailing_digit r1 = true -> no_trailing_digit r2 = true ->
      func_name itoa r1 i1 = func_name itoa r2 i2 -> r1 = r2 /\ i1 = i2.
Proof.
  intros itoa itoa_inj itoa_digits r1 r2 i1 i2 N1 N2 E%app_inv_head.
  apply name_digits_unique in E as [-> E]; auto.
Qed.
Print Assumptions C04_method_names_distinct.

Theorem C04_method_names_refuted_for_trailing_digits :
  func_name dec_nat (bytes_of_string "A") 11 = func_name dec_nat (bytes_of_string "A1") 1.
Proof. reflexivity. Qed.
Print Assumptions C04_method_names_refuted_for_trailing_digits.
