(* C18: concurrent parses with one generated package are isolated - the part a theorem can carry:
   the bookkeeping of state maps shared through the package-level pool.  For every history (any
   interleaving of any number of parsers starting, writing their state, cloning it for backtracking,
   restoring or dropping a clone, and of the pool dropping items) and whatever map the pool hands
   out at each clone, a parser observes exactly what it observes when it runs alone.
   The Go memory model (data races proper) is outside a Gallina model: the race detector runs in the
   correspondence check, see DESIGN.md. *)
From PV Require Import Lib.Base Model.Pool Proofs.PoolProofs.

Theorem C18_each_parser_sees_what_it_sees_alone : forall (h : list (tid * op)) (t : tid),
  view (run h init) t = srun (mine t h).
Proof. exact isolation. Qed.
Print Assumptions C18_each_parser_sees_what_it_sees_alone.

(* "Discard clears a map before returning it to the pool": every pooled map is empty, always *)
Theorem C18_pooled_maps_are_empty : forall (h : list (tid * op)) (a : addr),
  In a (pool (run h init)) -> heap (run h init) a = [].
Proof. intros h a. apply I_empty, run_inv, inv_init. Qed.
Print Assumptions C18_pooled_maps_are_empty.

(* a history in which two parsers interleave and the second one is handed the map the first one discarded *)
Example C18_nontrivial_history :
  let h := [(0, OStart); (1, OStart); (0, OSet 1%N 7%N); (0, OClone None); (0, OSet 1%N 8%N); (0, ORestore);
            (1, OSet 2%N 5%N); (1, OClone (Some 0)); (1, OSet 2%N 6%N); (0, OSet 3%N 9%N); (1, ORestore)] in
  pool (run h init) <> [] /\
  view (run h init) 0 = Some (mkS [(1, 7); (3, 9)]%N []) /\
  view (run h init) 1 = Some (mkS [(2, 5)]%N []).
Proof. vm_compute. repeat split. discriminate. Qed.
