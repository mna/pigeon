(* C12 - A failed parse reports the farthest failure position and the exact expected set. *)
From PV Require Import Syntax.RGrammar Model.PState Model.Runtime
  Spec.Ref Spec.RefParse Proofs.Inv Proofs.Sim Proofs.SimStep Proofs.FailProofs Proofs.TopLevel Proofs.Corollaries.

(* the incremental bookkeeping of failAt (compare with maxFailPos, truncate on advance,
   toggle under !) computes the batch definition over all terminal attempts: position =
   that of the first attempt at the greatest offset (1:1 when it is offset 0), expected =
   the attempts at that offset, "!"-prefixed when made inside a negative predicate *)
Theorem C12_incremental_is_batch : forall ts, mf_fold ts = (far_pos ts, far_expected ts).
Proof. exact mf_fold_far. Qed.
Print Assumptions C12_incremental_is_batch.

(* every failAt call of a run is one logged terminal attempt of the specification *)
Theorem C12_failAt_is_log : forall c matched pos want s sc g m H R inv,
  Sim c s sc g m H R inv ->
  Sim c (failAt matched pos want s) sc g (log (RTerm pos want matched inv) m) H R inv.
Proof. exact Sim_failAt. Qed.
Print Assumptions C12_failAt_is_log.

(* hence the single "no match found" error of a failed parse is the specification's:
   sorted, duplicate-free expected list, EOF last (rparse / no_match_perr) *)
Theorem C12_report_is_ref_report : forall c,
  state_ok c -> o_memoize (cO c) = false -> G_wf c -> stale_ok c -> t_leftrec (cT c) = false ->
  forall fuel, obs_equiv (parse c fuel) (rparse c fuel).
Proof. exact parse_refines_rparse. Qed.
Print Assumptions C12_report_is_ref_report.

(* the farthest position never moves backwards during a parse *)
Theorem C12_farthest_monotone : forall c fuel e s r s',
  I c s -> parseExprWrap c fuel e s = Ok r s' -> offset (maxFailPos s) <= offset (maxFailPos s').
Proof. intros c fuel e s r s' HI E. apply (inv_Ok c fuel e s r s' HI E). Qed.
Print Assumptions C12_farthest_monotone.
