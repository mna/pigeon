(* C08: left-recursive rules parse as the left-associative iteration they denote.
   Specification: Spec/LRIter.v (lreval / lrparse): a rule A <- A a1 / .. / A an / b1 / .. / bm, the
   recursive reference possibly through one alias rule, is the iteration (b1/../bm)(a1/../an)* with
   the recursive reference standing for the left-nested result so far.
   Proved here about the model of the run-time:
   - termination of the growing loop: at most |input| + 2 rounds, whatever the rule body does (C08_growth_terminates);
   - what the last, non-extending growth attempt did to the error list and to the state store is not
     retained, whatever the rule body did (any wrap, any rule, any state);
   - the full statement "the run-time computes the iteration" is FALSE of the faithful model when the
     cycle is entered through a rule that is not its leader: witness below (known finding
     C08-LEADER-NOT-ENTRY), and true on the same grammar once the entered rule is the leader.
   The statement for the remaining shapes is decided by execution against lrparse (see DESIGN.md):
   it is not proved. *)
From PV Require Import Lib.Base Syntax.RGrammar Model.PState Model.Runtime Spec.LRIter Proofs.Inv Proofs.Corollaries Proofs.LRProofs Proofs.LRRefuted.

Theorem C08_last_attempt_not_retained :
  forall (c : cfg) (wrap : expr -> M (val * bool)) n r sm depth last lastErrs s v b s2,
    parseRule wrap r (attempt_start c r sm last s) = Ok (v, b) s2 ->
    not_extending depth last b s2 ->
    exists s3,
      leader_loop c wrap (S n) r sm depth last lastErrs s = Ok last s3 /\
      errs s3 = lastErrs /\
      (has_state (cT c) = true -> st s3 = st s) /\
      gs s3 = gs s2 /\ trace s3 = trace s2.
Proof. exact last_attempt_not_retained. Qed.
Print Assumptions C08_last_attempt_not_retained.

(* "parsing terminates": the growing loop of a leader needs at most |input| + 2 rounds, whatever the rule body does -
   after the first round a further round is started only if the last one ended strictly farther, and ends stay within
   the input (invariant of the run-time model).  So when the body of the rule never runs out of fuel, the loop does not
   either, for every state satisfying the invariant, every grammar, with and without Memoize.  The hypothesis asks
   this of the body in EVERY state, also states whose cached suffix has nothing to do with the input, where any repetition
   over a consuming terminal outruns any given fuel, and states with an arbitrary recovery stack, where a throw can
   run an arbitrarily deep recovery expression; Corollaries.growth_terminates needs it only in the states a round
   can start from (a Step from the state in which the leader is entered: same stacks, save point coherent with the
   input), which is the form to use. *)
Theorem C08_growth_terminates : forall (c : cfg) fuel n r s,
  I c s ->
  (forall s', parseRule (parseExprWrap c fuel) r s' <> OutOfFuel) ->
  length (cData c) + 2 <= n ->
  parseRuleRecursiveLeader c (parseExprWrap c fuel) n r s <> OutOfFuel.
Proof. intros c fuel n r s HI Hnf. apply growth_terminates; auto. Qed.
Print Assumptions C08_growth_terminates.

(* Start <- Sum ; Sum <- Lhs "+" P / P ; Lhs <- Sum ; P <- "1"  on "1+1": the iteration the grammar denotes consumes
   the whole input; the run-time with the leader the analysis picks (Lhs) stops after "1"; with the leader on the rule
   through which the cycle is entered it parses the whole input *)
Theorem C08_iteration_refuted_when_entered_through_non_leader :
  rvalue_of (lrparse (rd (cfg_entry false)) 200) = Some whole /\
  value_of (parse (cfg_entry false) 200) = Some (VBytes [49%N]) /\
  value_of (parse (cfg_entry true) 200) = Some whole.
Proof. repeat split. Qed.
Print Assumptions C08_iteration_refuted_when_entered_through_non_leader.
