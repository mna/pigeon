(* C09: -optimize-grammar preserves the language and what actions see.
   Proved:
   - the local rewrites of the optimizer as laws of the specification's combinators, for every evaluator that treats
     the nested node as Ref defines it: a choice nested in a choice can be flattened, the outcome is identical, value
     included; a sequence nested in a sequence can be flattened, position, state, scope and the whole log (hence
     every action's text, pos and labels) are identical, the value is only regrouped; two adjacent literals with the
     same i flag succeed exactly when their concatenation does, and end at the same position;
   - the two flattening laws for Ref itself, which evaluates the nested node with less fuel and one more tick of the
     expression counter (C09_ref_choice_in_choice_flattens, C09_ref_sequence_in_sequence_flattens);
   - two passes of ast.Optimize as a whole, as modelled in Model/OptMerge.v: the terminal-merging loop over a flat
     choice together with cleanupCharClassMatcher, and the literal-concatenating loop over a sequence, leave what
     Ref computes as it is (the second up to joining adjacent matched texts).  Where a terminal ends is a function
     of the offset alone, and the merging pass is shown to preserve that function: Ref enters only through what a
     terminal does.  The concatenating pass has arbitrary expressions between its literals and is an induction over
     the pass on top of Ref's history independence (C06).
   Not proved: rule inlining and the removal of unreferenced rules, which are not modelled; that the two modelled
   passes are the ones of ast.Optimize (the check compares what they leave with what the real optimizer leaves on
   generated choices and sequences, syntactically).  Whether ast.Optimize as a whole preserves a grammar is decided
   on every run by executing the real optimizer and comparing the unoptimized and the optimized grammar under Ref,
   the model and real parsers (DESIGN.md A.3, C09). *)
From PV Require Import Lib.Base Syntax.RGrammar Syntax.Code Model.Runtime Spec.Ref Proofs.OptLaws
  Proofs.RefMono Proofs.CntInsens Proofs.RefOptLaws Proofs.RefSeqLaw.

Theorem C09_choice_in_choice_flattens : forall ev H R inv n a b d sc g m,
  (forall g0 m0, ev H R inv (EAlt n b) [] g0 m0 = ralt ev H R inv b [] g0 m0) ->
  ralt ev H R inv (a ++ EAlt n b :: d) sc g m = ralt ev H R inv (a ++ b ++ d) sc g m.
Proof. exact choice_in_choice_flattens. Qed.
Print Assumptions C09_choice_in_choice_flattens.

Theorem C09_sequence_in_sequence_flattens : forall ev H R inv n a b d sc g m,
  (forall sc0 g0 m0, ev H R inv (ESeq n b) sc0 g0 m0 = rseq ev H R inv b [] sc0 g0 m0) ->
  same_upto_grouping (rseq ev H R inv (a ++ ESeq n b :: d) [] sc g m) (rseq ev H R inv (a ++ b ++ d) [] sc g m).
Proof. exact sequence_in_sequence_flattens. Qed.
Print Assumptions C09_sequence_in_sequence_flattens.

Theorem C09_adjacent_literals_concatenate : forall c ev H R inv lf n1 n2 n rs1 rs2 ic w1 w2 w sc g m,
  (forall nn rs ww sc0 g0 m0, ev H R inv (ELit nn rs ic ww) sc0 g0 m0 = reval_body c ev lf H R inv (ELit nn rs ic ww) sc0 g0 m0) ->
  same_extent (rseq ev H R inv [ELit n1 rs1 ic w1; ELit n2 rs2 ic w2] [] sc g m)
              (reval_body c ev lf H R inv (ELit n (rs1 ++ rs2) ic w) sc g m).
Proof. exact adjacent_literals_concatenate. Qed.
Print Assumptions C09_adjacent_literals_concatenate.

(* the hypotheses are unfolding equations of Ref itself: reval (S f) evaluates a nested choice as the choice of its
   alternatives evaluated by reval f, after counting one expression.  The laws above are about fuel-free
   evaluators; carrying them over to reval at a fixed fuel needs monotonicity of reval in its fuel and tolerance of
   the counter. *)
Example C09_hypothesis_met_by_Ref : forall c f H R inv n b g m,
  o_maxexpr (rO c) = 0%N ->
  exists m', reval c (S f) H R inv (EAlt n b) [] g m = ralt (reval c f) H R inv b [] g m'.
Proof. intros c f H R inv n b g m Hb. exists (tick m). apply (reval_S_nobudget c Hb). Qed.

(* That carrying-over, for the choice law: for Ref itself, at every fuel at which the nested form is defined and
   without an expression budget, flattening a nested choice changes nothing but the expression counter (same
   outcome, value, position, state, scope, log and global store).  The ingredient is CntInsens.reval_fuel_cnt: with
   more fuel and another value of the counter Ref proceeds in the same way. *)
Theorem C09_ref_choice_in_choice_flattens : forall c, o_maxexpr (rO c) = 0%N ->
  forall f H R inv n n' a b d sc g m,
    reval c (S (S f)) H R inv (EAlt n (a ++ EAlt n' b :: d)) sc g m <> ROut ->
    rsim (reval c (S (S f)) H R inv (EAlt n (a ++ EAlt n' b :: d)) sc g m)
         (reval c (S (S f)) H R inv (EAlt n (a ++ b ++ d)) sc g m).
Proof. exact ref_choice_in_choice_flattens. Qed.
Print Assumptions C09_ref_choice_in_choice_flattens.

Theorem C09_ref_fuel_is_only_a_bound : forall c f f' H R inv e sc g m, f <= f' ->
  reval c f H R inv e sc g m <> ROut -> reval c f' H R inv e sc g m = reval c f H R inv e sc g m.
Proof. exact reval_mono_le. Qed.
Print Assumptions C09_ref_fuel_is_only_a_bound.

(* the sequence law for Ref itself: position, state, scope, log and global store are identical, the counter aside;
   the value is regrouped only *)
Theorem C09_ref_sequence_in_sequence_flattens : forall c, o_maxexpr (rO c) = 0%N ->
  forall f H R inv n n' a b d sc g m,
    reval c (S (S f)) H R inv (ESeq n (a ++ ESeq n' b :: d)) sc g m <> ROut ->
    rsimg (reval c (S (S f)) H R inv (ESeq n (a ++ ESeq n' b :: d)) sc g m)
          (reval c (S (S f)) H R inv (ESeq n (a ++ b ++ d)) sc g m).
Proof. exact ref_sequence_in_sequence_flattens. Qed.
Print Assumptions C09_ref_sequence_in_sequence_flattens.

(* A whole pass of the optimizer, modelled (Model/OptMerge.v; the check runs the model against the real
   ast.Optimize on generated choices and compares the alternatives left, syntactically).
   For every flat choice of alternatives (one-rune literals, classes with even-length range lists - what the class
   reader produces -, the any matcher, longer or empty literals), whatever expressions the builder emits for the
   alternatives as written (L) and for the alternatives the pass leaves (L'): under Ref the two choices give the same
   success/failure, value, end position and state and the same scope, from every position of every input, with every
   history. *)
From PV Require Import Proofs.Determinacy Model.OptMerge Proofs.OptMergeProofs.

Theorem C09_merge_pass_preserves_choice : forall (c : rdata),
  o_maxexpr (rO c) = 0%N ->
  (forall id x y, ctx_eq x y -> out_eq (ce_act (rE c) id x) (ce_act (rE c) id y)) ->
  (forall id x y, ctx_eq x y -> out_eq (ce_pred (rE c) id x) (ce_pred (rE c) id y)) ->
  (forall id x y, ctx_eq x y -> out_eq (ce_state (rE c) id x) (ce_state (rE c) id y)) ->
  forall l L L',
    Forall wf_alt l -> Forall2 (denotes c) l L -> Forall2 (denotes c) (optimize_choice l) L' ->
    forall f H R inv n n' sc g m,
      res_eq (reval c (S (S f)) H R inv (EAlt n L) sc g m) (reval c (S (S f)) H R inv (EAlt n' L') sc g m).
Proof. intros c Hb _ _ _. intros. eapply (merge_pass_preserves_choice c Hb); eassumption. Qed.
Print Assumptions C09_merge_pass_preserves_choice.

(* when the pass leaves one alternative the optimizer puts it in the place of the choice *)
Theorem C09_single_alternative_replaces_choice : forall (c : rdata),
  o_maxexpr (rO c) = 0%N ->
  forall a e ok, denotes c a e -> ok_of c a = Some ok ->
  forall f H R inv n sc g m,
    res_eq (reval c (S (S f)) H R inv (EAlt n [e]) sc g m) (reval c (S f) H R inv e sc g m).
Proof. intros c Hb. intros. eapply (single_alternative c Hb); eassumption. Qed.
Print Assumptions C09_single_alternative_replaces_choice.

(* the class algebra the pass relies on, for every class and rune *)
Theorem C09_class_union : forall u c0 r0 k0 c1 r1 k1 ic cur, Nat.even (length r0) = true ->
  class_decide u (c0 ++ c1) (r0 ++ r1) (k0 ++ k1) ic false cur =
  class_decide u c0 r0 k0 ic false cur || class_decide u c1 r1 k1 ic false cur.
Proof. exact class_decide_app. Qed.
Print Assumptions C09_class_union.

(* non-vacuity: the first run merges "a" / [b0-9] / "c"i / [x] / [x] to [ba0-9] / "c"i / [xx], the cleanup makes that
   [ba0-9] / "c"i / [x] *)
Example C09_merge_example :
  optimize_choice [MLit [97%Z] false; MCls [98%Z] [48%Z; 57%Z] [] false false; MLit [99%Z] true;
                   MCls [120%Z] [] [] false false; MCls [120%Z] [] [] false false]
  = [MCls [98%Z; 97%Z] [48%Z; 57%Z] [] false false; MLit [99%Z] true; MCls [120%Z] [] [] false false]
  /\ Forall wf_alt [MLit [97%Z] false; MCls [98%Z] [48%Z; 57%Z] [] false false; MLit [99%Z] true;
                    MCls [120%Z] [] [] false false; MCls [120%Z] [] [] false false].
Proof. split; [vm_compute; reflexivity | repeat constructor]. Qed.

(* The literal-concatenating pass over the items of a sequence (Model/OptMerge.v: spass; the check compares it
   with the real ast.Optimize, syntactically).
   For every sequence of items - literals and any other expressions [others k] - whatever expressions the builder
   emits for the literals as written (L) and as left by the pass (L'): under Ref the two sequences succeed or fail
   alike, end at the same position and state with the same label scope, and their values are equal up to joining
   adjacent matched texts ([text_of]: the leaves of the value with neighbouring byte strings concatenated) - the
   "regrouping" the property allows for action-less groups. *)
From PV Require Import Proofs.OptSeqProofs.

Theorem C09_concat_pass_preserves_sequence : forall (c : rdata),
  o_maxexpr (rO c) = 0%N ->
  (forall id x y, ctx_eq x y -> out_eq (ce_act (rE c) id x) (ce_act (rE c) id y)) ->
  (forall id x y, ctx_eq x y -> out_eq (ce_pred (rE c) id x) (ce_pred (rE c) id y)) ->
  (forall id x y, ctx_eq x y -> out_eq (ce_state (rE c) id x) (ce_state (rE c) id y)) ->
  forall (others : nat -> expr) l L L',
    Forall2 (sdenotes c others) l L -> Forall2 (sdenotes c others) (optimize_seq l) L' ->
    forall f H R inv n n' sc g m,
      sres_eq (reval c (S (S f)) H R inv (ESeq n L) sc g m) (reval c (S (S f)) H R inv (ESeq n' L') sc g m).
Proof. intros c Hb Ha Hp Hs. intros. eapply (concat_pass_preserves_sequence c Hb Ha Hp Hs); eassumption. Qed.
Print Assumptions C09_concat_pass_preserves_sequence.

(* a sequence left with one item is replaced by the item: same outcome, the value loses one level of grouping *)
Theorem C09_single_item_replaces_sequence : forall (c : rdata),
  o_maxexpr (rO c) = 0%N ->
  (forall id x y, ctx_eq x y -> out_eq (ce_act (rE c) id x) (ce_act (rE c) id y)) ->
  (forall id x y, ctx_eq x y -> out_eq (ce_pred (rE c) id x) (ce_pred (rE c) id y)) ->
  (forall id x y, ctx_eq x y -> out_eq (ce_state (rE c) id x) (ce_state (rE c) id y)) ->
  forall e f H R inv n sc g m,
    sres_eq (reval c (S (S f)) H R inv (ESeq n [e]) sc g m) (reval c (S f) H R inv e sc g m).
Proof. intros c Hb Ha Hp Hs. intros. apply (single_item c Hb Ha Hp Hs). Qed.
Print Assumptions C09_single_item_replaces_sequence.

(* cleanupCharClassMatcher: dropping repeated characters, ranges and Unicode classes changes no decision
   (f = what the builder does to the members afterwards: lower-casing under the i flag, or nothing) *)
Theorem C09_class_cleanup : forall u cs rs ks ic inv (f : rune -> rune) cur,
  class_decide u (map f (dedupe_z [] cs)) (map f (dedupe_pairs [] rs)) (dedupe_b [] ks) ic inv cur =
  class_decide u (map f cs) (map f rs) ks ic inv cur.
Proof. exact class_decide_cleanup. Qed.
Print Assumptions C09_class_cleanup.

(* non-vacuity: "a" "b"i "c"i x "d" "e" "f"  =>  "a" "bc"i x "de" "f"  =>  "a" "bc"i x "def" *)
Example C09_concat_example :
  optimize_seq [ILit [97%Z] false; ILit [98%Z] true; ILit [99%Z] true; IOther 3; ILit [100%Z] false; ILit [101%Z] false; ILit [102%Z] false]
  = [ILit [97%Z] false; ILit [98%Z; 99%Z] true; IOther 3; ILit [100%Z; 101%Z; 102%Z] false].
Proof. vm_compute. reflexivity. Qed.
