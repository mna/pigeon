(* C10 - -optimize-parser output is observationally equivalent to the standard parser. *)
From PV Require Import Syntax.RGrammar Model.Runtime Spec.RefParse Proofs.Sim Proofs.TopLevel Proofs.Variants.

(* For default run-time options (Memoize off) and a grammar without left-recursive rules:
   the parser generated with -optimize-parser and the one generated without it (any two
   template flag sets, in fact: Optimize, GlobalState, BasicLatinLookupTable) return the same
   value, the same error list, the same globalStore and count the same expressions.
   hyps covers: a state store, or no store and blocks that never touch state (what the Go
   compiler enforces when the store is removed); Basic-Latin tables agreeing with the
   general procedure when used; the quirk conditions of C01. *)
Theorem C10_optimize_equiv : forall c t1 t2,
  hyps (with_tmpl t1 c) -> hyps (with_tmpl t2 c) ->
  forall fuel, same_result (parse (with_tmpl t1 c) fuel) (parse (with_tmpl t2 c) fuel).
Proof. exact tmpl_variants_agree. Qed.
Print Assumptions C10_optimize_equiv.

(* both refine the same specification, which cannot see template flags by construction
   (Ref is defined over rdata: input, Unicode library, options, grammar, code blocks) *)
Theorem C10_spec_ignores_template : forall t c, rd (with_tmpl t c) = rd c.
Proof. exact rd_with_tmpl. Qed.
Print Assumptions C10_spec_ignores_template.

Theorem C10_each_variant_refines_ref : forall c,
  state_ok c -> o_memoize (cO c) = false -> G_wf c -> stale_ok c -> t_leftrec (cT c) = false ->
  forall fuel, obs_equiv (parse c fuel) (rparse c fuel).
Proof. exact parse_refines_rparse. Qed.
Print Assumptions C10_each_variant_refines_ref.
