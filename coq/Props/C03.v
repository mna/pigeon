(* C03: the grammar front-end builds the AST the text denotes - the part carried by theorems:
   the reader of character classes (ast.CharClassMatcher.parse) returns exactly the members,
   ranges and Unicode classes that a class text denotes, in order, with its i and ^ flags, for
   every spelling of every member; the reader of double- and single-quoted literals (strconv.Unquote)
   returns the bytes the token denotes.  The rest of the front-end (layout, operators, binding
   strength, positions, back-quoted literals) is decided by the correspondence check against the
   denoted AST. *)
From PV Require Import Lib.Base Model.Front Model.FrontLit Proofs.FrontProofs.
Local Open Scope Z_scope.

(* every class text print_class can produce (all member spellings: raw, \], single-character
   escapes, \xNN, \uNNNN, \UNNNNNNNN, \NNN; \pX and \p{Name}; ranges; ^ and i) is read back as the
   class it denotes, when an escaped rune is never the range operator (the grammar's reading);
   a raw '-' may be a member where the syntax makes it one: first, right after a range, or last *)
Theorem C03_class_reader_recovers_denoted_class : forall items ic inv,
  forallb item_ok items = true -> dash_ok true items = true -> lead_ok items inv = true ->
  parse_class true (print_class items ic inv) =
  Some (mkClass (denote_chars items) (denote_ranges items) (denote_classes items) ic inv).
Proof.
  intros items ic inv Hok Hdash Hlead. unfold print_class.
  rewrite parse_class_brackets, scan_items by (assumption || apply le_n).
  rewrite (extract_items items true) by (assumption || (intros _; right; reflexivity)). reflexivity.
Qed.
Print Assumptions C03_class_reader_recovers_denoted_class.

(* the hypotheses are satisfiable by a class using every kind of member and spelling,
   including an escaped hyphen between two members *)
Example C03_hypotheses_inhabited :
  let items := [IChar 45 SRaw; IChar 97 SRaw; IChar 45 SHex; IChar 122 SU4; IRange 48 SOct 57 SU8; IChar 45 SRaw; IUni [76; 117] true; IUni [78] false; IChar 93 SEsc; IChar 10 SEsc; IChar 45 SRaw] in
  forallb item_ok items = true /\ dash_ok true items = true /\ lead_ok items false = true /\
  parse_class true (print_class items true false) =
    Some (mkClass [45; 97; 45; 122; 45; 93; 10; 45] [48; 57] [[76; 117]; [78]] true false).
Proof. vm_compute. repeat split. Qed.

(* the reading that forgets which runes were escaped (the pinned tree) is refuted:
   [a\x2dz] denotes the three members a, -, z and is read as the range a-z *)
Theorem C03_escaped_hyphen_refuted :
  exists items, forallb item_ok items = true /\ dash_ok true items = true /\ lead_ok items false = true /\
    parse_class false (print_class items false false) <>
    Some (mkClass (denote_chars items) (denote_ranges items) (denote_classes items) false false).
Proof. exists [IChar 97 SRaw; IChar 45 SHex; IChar 122 SRaw]. vm_compute. repeat split. discriminate. Qed.
Print Assumptions C03_escaped_hyphen_refuted.

(* string literals: every double- or single-quoted token the printer can produce - each element a rune written raw,
   as a single-character escape, as \uNNNN or \UNNNNNNNN, or a byte written \xNN or \NNN - is unquoted to
   the bytes it denotes (runes in UTF-8, byte escapes as themselves) *)
Theorem C03_literal_reader_recovers_denoted_bytes : forall q es,
  (q =? r_dquote)%Z || (q =? r_squote)%Z = true -> forallb (lelem_ok q) es = true ->
  unquote (print_string q es) = Some (concat (map denote_lelem es)).
Proof.
  intros q es Hq Hok. unfold unquote, print_string. cbn [app]. rewrite removelast_last.
  destruct (Z.eqb_spec q r_bquote) as [->|_]; [discriminate Hq|].
  rewrite Hq. apply unq_elems; trivial.
Qed.
Print Assumptions C03_literal_reader_recovers_denoted_bytes.

Example C03_literal_hypotheses_inhabited :
  let es := [LRune 97 LRaw; LRune 10 LEsc; LRune 34 LEsc; LRune 233 LU4; LRune 128512 LU8; LByteHex 255; LByteOct 7; LRune 92 LEsc]%Z in
  forallb (lelem_ok r_dquote) es = true /\
  unquote (print_string r_dquote es) = Some [97; 10; 34; 195; 169; 240; 159; 152; 128; 255; 7; 92]%N.
Proof. vm_compute. split; reflexivity. Qed.
