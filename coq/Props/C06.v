(* C06: Memoize, Debug and Statistics never change results.
   - The principle that makes remembering a result sound is a theorem of the specification: with
     code blocks that look only at text, pos, their labels and the state store, and without an
     expression budget, the outcome of an expression (success/failure, value, end position and
     state, label scope) does not depend on anything evaluated before.
   - The full statement "parse with Memoize(true) = parse with default options" is FALSE of the
     faithful model: a memo hit on a label-binding expression skips the binding (known finding
     C06-MEMO-LABEL); the witness also shows the equivalence restored when such results are not
     memoised.
   - "Memoize bounds the work": in the model of the standard parser (no -optimize-parser, no left-recursion
     support), with Memoize(true) every evaluated expression stores exactly one result in the memo table and a
     hit evaluates nothing, so the number of evaluated expressions IS the number of stored results
     (C06_evaluations_are_stored_results, every grammar, every input, provided no panic was recovered: the evaluations
     in flight at a panic have been counted and are never stored).  When no (offset, expression) pair is stored
     twice the count is therefore at most |expressions| x (|input| + 1) (C06_linear_bound_nodup_partial; stored
     offsets lie within the input by the invariant of the run-time model).  What is missing for the full statement:
     that a grammar without left recursion never stores a pair twice (no re-entry at one offset); it is decided on
     the implementation by the C06 check (evaluated expressions <= expressions x (|input| + 1), each action at most
     once per start position).
     For the remaining grammars the statement and the Debug / Statistics options (outside
     the model) are decided by execution (DESIGN.md). *)
From PV Require Import Lib.Base Syntax.RGrammar Syntax.Code Model.PState Model.Runtime
  Spec.Ref Spec.RefParse Proofs.Determinacy Proofs.MemoRefuted Proofs.MemoCount.

Theorem C06_outcome_does_not_depend_on_history :
  forall (c : rdata), o_maxexpr (rO c) = 0%N ->
    (forall id x y, ctx_eq x y -> out_eq (ce_act (rE c) id x) (ce_act (rE c) id y)) ->
    (forall id x y, ctx_eq x y -> out_eq (ce_pred (rE c) id x) (ce_pred (rE c) id y)) ->
    (forall id x y, ctx_eq x y -> out_eq (ce_state (rE c) id x) (ce_state (rE c) id y)) ->
    forall fuel H R inv e sc g m1 m2,
      res_eq (reval c fuel H R inv e sc g m1) (reval c fuel H R inv e sc g m2).
Proof. intros c Hb Ha Hp Hs fuel. exact (outcome_is_history_independent c Hb Ha Hp Hs fuel). Qed.
Print Assumptions C06_outcome_does_not_depend_on_history.

(* the hypotheses are met by the code blocks of the correspondence harness's DSL whenever they do not
   read the global store: here the actions of the witness environment *)
Example C06_hypotheses_inhabited :
  forall id x y, ctx_eq x y -> out_eq (ce_act env_x id x) (ce_act env_x id y).
Proof. intros id x y (H1 & H2 & H3 & H4). cbn. rewrite H3. auto. Qed.

(* S <- R "z" / "a" R ; R <- Q x:A {x} ; Q <- "a"? ; A <- "b"  on "ab" *)
Theorem C06_memoize_refuted_on_labels :
  rvalue_of (rparse (rd (cfg_memo faithful false)) 100) = Some expected /\
  value_of (parse (cfg_memo faithful false) 100) = Some expected /\
  value_of (parse (cfg_memo faithful true) 100) = Some (VList [VBytes [97%N]; VNil]) /\
  value_of (parse (cfg_memo no_label_memo true) 100) = Some expected.
Proof. repeat split. Qed.
Print Assumptions C06_memoize_refuted_on_labels.

(* An observation OUTSIDE the statement of C06 (which speaks of success/failure, value and code-block errors, not of
   the text of the final "no match found" report): a result computed inside a ! predicate and reused outside it (or
   the reverse) changes the expected set.  S <- !A "x" / A ; A <- "a"  on "b": [no match found, expected: "a" or "x"]
   by the specification and with default options, [.. expected: "x"] with Memoize(true); not using the table inside !
   (model switch q_memo_expected) restores the equality.  Kept so that the model documents what the code does. *)
Theorem C06_observation_memoize_changes_expected_set :
  rerrors_of (rparse (rd (cfg_exp faithful false)) 100) = both_expected /\
  errors_of (parse (cfg_exp faithful false) 100) = both_expected /\
  errors_of (parse (cfg_exp faithful true) 100) = only_x /\
  errors_of (parse (cfg_exp no_expected_memo true) 100) = both_expected /\
  both_expected <> only_x.
Proof. repeat split. discriminate. Qed.
Print Assumptions C06_observation_memoize_changes_expected_set.

(* the counting theorems do not use the hypothesis o_maxexpr = 0: an expression budget only adds a way to panic *)
Theorem C06_evaluations_are_stored_results : forall (c : cfg),
  o_memoize (cO c) = true -> t_optimize (cT c) = false -> t_leftrec (cT c) = false ->
  q_memo_nocharge (cQ c) = true -> q_memo_label (cQ c) = true -> q_memo_expected (cQ c) = true ->
  o_maxexpr (cO c) = 0%N ->
  forall fuel v errors final, did_not_panic c fuel ->
    parse c fuel = Returned v errors final -> exprCnt final = stored (memo final).
Proof. intros c H1 H2 H3 H4 H5 H6 _. exact (evaluations_are_stored_results c H1 H2 H3 H4 H5 H6). Qed.
Print Assumptions C06_evaluations_are_stored_results.

(* with Recover(false) a panic is not a return, so the hypothesis on panics goes away *)
Theorem C06_evaluations_are_stored_results_without_recover : forall (c : cfg),
  o_memoize (cO c) = true -> t_optimize (cT c) = false -> t_leftrec (cT c) = false ->
  q_memo_nocharge (cQ c) = true -> q_memo_label (cQ c) = true -> q_memo_expected (cQ c) = true ->
  o_maxexpr (cO c) = 0%N -> o_recover (cO c) = false ->
  forall fuel v errors final,
    parse c fuel = Returned v errors final -> exprCnt final = stored (memo final).
Proof. intros c H1 H2 H3 H4 H5 H6 _ H8 fuel v errors final. exact (evaluations_are_stored_results_without_recover c H1 H2 H3 H4 H5 H6 fuel v errors final H8). Qed.
Print Assumptions C06_evaluations_are_stored_results_without_recover.

Theorem C06_linear_bound_partial : forall (c : cfg),
  o_memoize (cO c) = true -> t_optimize (cT c) = false -> t_leftrec (cT c) = false ->
  q_memo_nocharge (cQ c) = true -> q_memo_label (cQ c) = true -> q_memo_expected (cQ c) = true ->
  o_maxexpr (cO c) = 0%N ->
  forall fuel v errors final (offs : list nat) (ids : list nid), did_not_panic c fuel ->
    parse c fuel = Returned v errors final ->
    NoDup (expr_keys (memo final)) ->
    incl (expr_keys (memo final)) (list_prod offs ids) ->
    (exprCnt final <= N.of_nat (length offs) * N.of_nat (length ids))%N.
Proof. intros c H1 H2 H3 H4 H5 H6 _. exact (linear_bound_partial c H1 H2 H3 H4 H5 H6). Qed.
Print Assumptions C06_linear_bound_partial.

(* the same with the offsets discharged by the invariant of the run-time model (stored offsets lie within the input):
   at most (number of expressions) x (input length + 1) evaluations, provided no pair is stored twice *)
Theorem C06_linear_bound_nodup_partial : forall (c : cfg),
  o_memoize (cO c) = true -> t_optimize (cT c) = false -> t_leftrec (cT c) = false ->
  q_memo_nocharge (cQ c) = true -> q_memo_label (cQ c) = true -> q_memo_expected (cQ c) = true ->
  o_maxexpr (cO c) = 0%N ->
  forall fuel v errors final (ids : list nid), did_not_panic c fuel ->
    parse c fuel = Returned v errors final ->
    NoDup (expr_keys (memo final)) ->
    (forall o n, In (o, n) (expr_keys (memo final)) -> In n ids) ->
    (exprCnt final <= N.of_nat (length ids) * (N.of_nat (length (cData c)) + 1))%N.
Proof. intros c H1 H2 H3 H4 H5 H6 _. exact (linear_bound_nodup c H1 H2 H3 H4 H5 H6). Qed.
Print Assumptions C06_linear_bound_nodup_partial.

(* NoDup and incl of concrete lists, by evaluating the standard library's nodup and Forall_dec *)
Definition key_dec (x y : nat * nid) : {x = y} + {x <> y}.
Proof. decide equality; [apply N.eq_dec | apply Nat.eq_dec]. Defined.

Lemma nodup_NoDup {A} (dec : forall x y : A, {x = y} + {x <> y}) l : nodup dec l = l -> NoDup l.
Proof. intros <-. apply NoDup_nodup. Qed.

Lemma Forall_In_incl {A} (dec : forall x y : A, {x = y} + {x <> y}) l k :
  (if Forall_dec _ (fun x => in_dec dec x k) l then True else False) -> incl l k.
Proof. destruct (Forall_dec _ _ l) as [H|]; [intros _; apply incl_Forall_in_iff; exact H | contradiction]. Qed.

(* the hypotheses are met by the grammar of the memo witness on "ab": 20 evaluations, 20 distinct pairs among
   3 offsets x 15 expressions *)
Example C06_bound_hypotheses_inhabited :
  did_not_panic (cfg_memo faithful true) 100 /\
  exists v errs final, parse (cfg_memo faithful true) 100 = Returned v errs final /\
    NoDup (expr_keys (memo final)) /\
    incl (expr_keys (memo final)) (list_prod (seq 0 3) example_ids) /\
    exprCnt final = 20%N.
Proof.
  split; [intros pv s; vm_compute; discriminate|].
  eexists. eexists. eexists. split; [vm_compute; reflexivity|].
  split; [apply (nodup_NoDup key_dec); vm_compute; reflexivity|].
  split; [apply (Forall_In_incl key_dec); vm_compute; exact I|]. reflexivity.
Qed.
