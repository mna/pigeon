(* C11 - Error contract: typed, positioned, accumulated errors; panics are contained. *)
From PV Require Import Lib.Base Syntax.RGrammar Model.PState Model.Runtime Spec.RefParse Proofs.Inv Proofs.Sim Proofs.TopLevel Proofs.Corollaries.

(* the errors present on entry are never lost: failure, backtracking and memo hits only ever extend the list; the
   growing loop of left recursion takes back what its last, non-extending attempt recorded
   (C08_last_attempt_not_retained), never anything older *)
Theorem C11_errors_accumulate : forall c fuel e s,
  I c s ->
  match parseExprWrap c fuel e s with
  | Ok _ s' | Panic _ s' => exists l, errs s' = errs s ++ l
  | OutOfFuel => True
  end.
Proof. exact errors_only_grow. Qed.
Print Assumptions C11_errors_accumulate.

(* the returned list = the specification's: every error a code block returns is recorded
   at the position of its match with file, line:col (offset) and rule prefix, parsing
   continues, value and errors can be returned together *)
Theorem C11_errors_are_ref_errors : forall c,
  state_ok c -> o_memoize (cO c) = false -> G_wf c -> stale_ok c -> t_leftrec (cT c) = false ->
  forall fuel, obs_equiv (parse c fuel) (rparse c fuel).
Proof. exact parse_refines_rparse. Qed.
Print Assumptions C11_errors_are_ref_errors.

(* identical messages are reported once and nothing else is dropped; that the occurrence kept is the first is said
   of the head of the list only (C11_dedupe_keeps_first) *)
Theorem C11_dedupe : forall l,
  NoDup (map perr_string (dedupe l)) /\
  (forall e, In e (dedupe l) -> In e l) /\
  (forall e, In e l -> In (perr_string e) (map perr_string (dedupe l))).
Proof. exact dedupe_spec. Qed.
Print Assumptions C11_dedupe.

Theorem C11_dedupe_keeps_first : forall x l, exists l', dedupe (x :: l) = x :: l'.
Proof. exact dedupe_keeps_first. Qed.
Print Assumptions C11_dedupe_keeps_first.

(* Recover(true): a panic never escapes, it is recorded as one more error, the last before
   de-duplication, with a nil value; Recover(false): it propagates *)
Theorem C11_panic_contained : forall c fuel r en pv s',
  cG c <> [] -> entry_name c = Some en -> find_rule en (cG c) = Some r ->
  parseRuleWrap c (parseExprWrap c fuel) fuel r (read c (init_state c)) = Panic pv s' ->
  parse c fuel =
    if o_recover (cO c)
    then Returned VNil (dedupe (errs s' ++ [mkPerr pv (sp_pos (pt s')) (err_prefix c (sp_pos (pt s')) s') []])) (addErr c pv s')
    else Panicked pv s'.
Proof. intros c fuel r en pv s' _. apply parse_panic_contained. Qed.
Print Assumptions C11_panic_contained.
