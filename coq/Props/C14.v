(* C14 - Throw and recover follow the labelled-failure semantics. *)
From PV Require Import Lib.Base Syntax.RGrammar Model.PState Model.Runtime
  Spec.Ref Proofs.Inv Proofs.Sim Proofs.SimFinal Proofs.Corollaries Proofs.RefLaws.

(* the specification says what the property says ... *)
Theorem C14_innermost_handler_first : forall ev H R inv l ls rc hs sc g m v g' sc' m',
  mem_bytes l ls = true -> ev H R inv rc [] g m = ROk v g' sc' m' ->
  rthrow ev H R inv l ((ls, rc) :: hs) sc g m = ROk v g' sc m'.
Proof. exact throw_innermost. Qed.
Print Assumptions C14_innermost_handler_first.

Theorem C14_fallthrough : forall ev H R inv l ls rc hs sc g m m',
  mem_bytes l ls = true -> ev H R inv rc [] g m = RFail m' ->
  rthrow ev H R inv l ((ls, rc) :: hs) sc g m = rthrow ev H R inv l hs sc g m'.
Proof. exact throw_fallthrough. Qed.
Print Assumptions C14_fallthrough.

Theorem C14_other_labels_skipped : forall ev H R inv l ls rc hs sc g m,
  mem_bytes l ls = false ->
  rthrow ev H R inv l ((ls, rc) :: hs) sc g m = rthrow ev H R inv l hs sc g m.
Proof. exact throw_skips_other_labels. Qed.
Print Assumptions C14_other_labels_skipped.

Theorem C14_unhandled_is_failure : forall ev H R inv l sc g m, rthrow ev H R inv l [] sc g m = RFail m.
Proof. exact throw_unhandled. Qed.
Print Assumptions C14_unhandled_is_failure.

Theorem C14_handlers_in_force_while_guarded : forall (c : rdata) ev n H R inv nid e rc ls sc g m,
  reval_body c ev n H R inv (ERec nid e rc ls) sc g m = ev ((ls, rc) :: H) R inv e sc g m.
Proof. exact rec_scopes_handler. Qed.
Print Assumptions C14_handlers_in_force_while_guarded.

(* ... and the recoveryStack push/pop discipline of the implementation refines it:
   part of the simulation relation is  rcvstack s = H  at every call *)
Theorem C14_recovery_stack_refines_handlers : forall c,
  state_ok c -> o_memoize (cO c) = false -> G_wf c -> stale_ok c -> t_leftrec (cT c) = false ->
  forall fuel, sim_spec c (parseExprWrap c fuel) (reval c fuel).
Proof. exact impl_refines_ref. Qed.
Print Assumptions C14_recovery_stack_refines_handlers.

(* handlers are popped on success and on failure alike *)
Theorem C14_recovery_stack_balanced : forall c fuel e s r s',
  I c s -> parseExprWrap c fuel e s = Ok r s' -> rcvstack s' = rcvstack s.
Proof. intros c fuel e s r s' HI E. apply (stacks_balanced c fuel e s r s' HI E). Qed.
Print Assumptions C14_recovery_stack_balanced.
