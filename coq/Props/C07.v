(* C07 - Left recursion is detected: rejected by default, never silently accepted.
   Proved below: nothing but left recursion is rejected.  Refuted: all of it is. *)
From PV Require Import Lib.Base Syntax.Ast Model.Prepare Spec.LRRel Proofs.PrepareProofs Proofs.PrepareRefuted.
From Coq Require Import Relations.Relation_Operators.

(* No false rejection: whatever PrepareGrammar reports - a left-recursive rule, or the
   absence of a leader - is a cycle of the specification (a rule reaching itself at the same
   position through nullable prefixes; predicates count iff the analysis looks into them),
   for every iteration order of the rules map, every setting of the analysis quirks.
   Contrapositive: a grammar with no such cycle is accepted.  ids_unique: the nodes that
   carry a Nullable flag are distinct objects in Go; here they have distinct identities. *)
Theorem C07_reports_only_real_cycles : forall q g, ids_unique g -> forall fuel ord,
  (match prepare q g fuel ord with PrepOk true _ _ | PrepNoLeader => True | PrepOk false _ _ => False end) ->
  lr_cycle_rel g (negb (pq_pred q)).
Proof.
  intros q g Hu fuel ord. generalize (prepare_sound q g Hu fuel ord).
  destruct (prepare q g fuel ord) as [[|] lrs leaders|]; tauto.
Qed.
Print Assumptions C07_reports_only_real_cycles.

Theorem C07_cycle_free_grammars_are_accepted : forall q g, ids_unique g ->
  ~ lr_cycle_rel g (negb (pq_pred q)) -> forall fuel ord, prepare q g fuel ord = PrepOk false [] [].
Proof. exact no_cycle_order_free. Qed.
Print Assumptions C07_cycle_free_grammars_are_accepted.

(* The other direction (every cycle of the specification is reported) is not claimed, and
   holds for no setting of the quirks: e+ is never nullable for the analysis (IsNullable of
   OneOrMoreExpr is false), for the specification it is when e is.  Of the pinned tree it
   fails in two more ways; each grammar below has a cycle and is accepted: *)
(* - a reference behind a nullable prefix inside ?, * or +: the pinned NullableVisit does not
     descend into them, so the flags inside stay false *)
Theorem C07_refuted_nullable_inner :
  lr_cycle_rel g_inner false /\
  forall ord, In ord [[nA; nB]; [nB; nA]] -> prepare pinned g_inner 100 ord = PrepOk false [] [].
Proof.
  split; [|intros ord [<-|[<-|[]]]; vm_compute; reflexivity].
  exists nA. apply t_step. eexists. split; [reflexivity|].
  apply (fc_seq _ _ _ []); [constructor|]. apply fc_opt.
  apply (fc_seq _ _ _ [ARef 3%N nB]); [|constructor].
  constructor; [|constructor]. eapply nx_ref; [reflexivity|]. constructor.
Qed.
Print Assumptions C07_refuted_nullable_inner.

(* with pq_inner off (the operands of ?, * and + are visited, as in /repo since commit 46465c9)
   the cycle of this grammar is found *)
Theorem C07_nullable_inner_repaired : prepare (mkPq false true true) g_inner 100 [nA; nB] = PrepOk true [nA] [nA].
Proof. vm_compute. reflexivity. Qed.
Print Assumptions C07_nullable_inner_repaired.

(* - through a lookahead predicate: the pinned InitialNames of & and ! is empty *)
Theorem C07_refuted_pred :
  lr_cycle_rel g_pred true /\ prepare pinned g_pred 100 [nA] = PrepOk false [] [].
Proof.
  split; [|vm_compute; reflexivity].
  exists nA. apply t_step. eexists. split; [reflexivity|].
  apply (fc_seq _ _ _ []); [constructor|]. apply fc_and; [reflexivity | constructor].
Qed.
Print Assumptions C07_refuted_pred.
