(* C05 - Backtracking rolls back the state store; globalStore is never rolled back. *)
From PV Require Import Lib.Base Syntax.RGrammar Syntax.Code Model.PState Spec.Pos Model.Runtime Spec.Ref Spec.RefParse
  Proofs.Inv Proofs.Sim Proofs.TopLevel Proofs.Corollaries Proofs.RefLaws.

(* whenever an expression fails, the store is the store before it started: all 18
   kinds, every template with a store, Memoize on or off, with left recursion *)
Theorem C05_fail_restores_state : forall c fuel e s v s',
  I c s -> has_state (cT c) = true -> parseExprWrap c fuel e s = Ok (v, false) s' -> st s' = st s.
Proof. intros c fuel e s v s' HI Hh E. exact (proj2 (fail_consumes_nothing c fuel e s v s' HI E) Hh). Qed.
Print Assumptions C05_fail_restores_state.

(* the store seen by every code block, and the globalStore, are those of the
   value-passing specification (where nothing is ever rolled back because state is
   passed by value and globalStore is threaded through failures) *)
Theorem C05_stores_refine_ref : forall c,
  state_ok c -> o_memoize (cO c) = false -> G_wf c -> stale_ok c -> t_leftrec (cT c) = false ->
  forall fuel, obs_equiv (parse c fuel) (rparse c fuel).
Proof. exact parse_refines_rparse. Qed.
Print Assumptions C05_stores_refine_ref.

(* specification: predicates leave the store as it was, actions' writes are discarded,
   state blocks' writes persist *)
Theorem C05_ref_predicates_restore : forall (c : rdata) ev n H R inv nid e sc g m v g' sc' m',
  (reval_body c ev n H R inv (EAnd nid e) sc g m = ROk v g' sc' m' -> g' = g) /\
  (reval_body c ev n H R inv (ENot nid e) sc g m = ROk v g' sc' m' -> g' = g).
Proof.
  split; intros E; [apply and_consumes_nothing in E | apply not_consumes_nothing in E]; apply E.
Qed.
Print Assumptions C05_ref_predicates_restore.

Theorem C05_ref_state_block_persists : forall (c : rdata) ev n H R inv nid id sc g m,
  let x := block_ctx_ref c id [] (pos_of (rData c) (g_off g)) sc g m in
  forall r err st' gs', ce_state (rE c) id x = CbRet r err st' gs' ->
  exists m2, reval_body c ev n H R inv (EStC nid id) sc g m = ROk VNil (mkSig (g_off g) st') sc m2.
Proof. exact stc_keeps_state. Qed.
Print Assumptions C05_ref_state_block_persists.

Theorem C05_ref_action_writes_discarded : forall (c : rdata) ev n H R inv nid id e sc g m g1 sc1 m1 v0,
  ev H R inv e sc g m = ROk v0 g1 sc1 m1 ->
  let x := block_ctx_ref c id (slice c (g_off g) (g_off g1)) (pos_of (rData c) (g_off g)) sc1 g1 m1 in
  match ce_act (rE c) id x with
  | CbRet r err st' gs' =>
      exists m2, reval_body c ev n H R inv (EAct nid id e) sc g m = ROk r g1 sc1 m2 /\ u_gs m2 = gs'
  | CbPanic pv st' gs' =>
      exists m2, reval_body c ev n H R inv (EAct nid id e) sc g m = RPanic pv m2 (pos_of (rData c) (g_off g1)) R
  end.
Proof. exact act_context. Qed.
Print Assumptions C05_ref_action_writes_discarded.
