(* C20: the bootstrap chain - the part carried by a theorem: the string constant that
   static_code_generator writes denotes the run-time source.  The model of the generator
   ([embed]) is compared byte for byte with the checked-in generated files on every run; the
   other artifacts and the two front-ends are compared by execution (see DESIGN.md). *)
From PV Require Import Lib.Base Model.Embed Proofs.EmbedProofs.
From Coq Require Import String.

(* the value Go gives to the embedded raw string is: newline, then the lines of the source after the
   delimiter line, each followed by a newline (carriage returns dropped) - for every source text
   whose kept part contains no backquote *)
Theorem C20_embedded_constant_denotes_source : forall src var,
  has bq var = false -> has bq (join_lines (kept src)) = false ->
  raw_string_value (embed src var) =
    Some (filter (fun c => negb (N.eqb c cr)) (nl :: join_lines (kept src ++ [[]]))).
Proof.
  intros src var Hvar Hk. rewrite embed_shape.
  apply raw_string_value_first; [apply has_header, Hvar|].
  rewrite <- (has_join_terminated bq) in Hk by reflexivity. exact Hk.
Qed.
Print Assumptions C20_embedded_constant_denotes_source.

(* the lines are those of the source: splitting at newlines and joining again loses nothing *)
Theorem C20_lines_are_the_source : forall src, join_lines (split_lines src []) = src.
Proof. intros src. rewrite join_split. reflexivity. Qed.
Print Assumptions C20_lines_are_the_source.

Example C20_hypotheses_inhabited :
  let src := bytes_of_string "package x" ++ [nl] ++ delimiter ++ [nl] ++ bytes_of_string "func f() {}" ++ [nl] in
  has bq (join_lines (kept src)) = false /\
  raw_string_value (embed src (bytes_of_string "staticCode")) = Some ([nl] ++ bytes_of_string "func f() {}" ++ [nl; nl]).
Proof. vm_compute. split; reflexivity. Qed.
