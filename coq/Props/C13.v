(* C13: the tool is total - the part a theorem can carry: the exit-status decision.  Status 0 is
   produced exactly when help was requested or every stage succeeded; in particular a grammar the
   front-end or the builder rejects never yields status 0.  Absence of crashes and hangs of the real
   stages (front-end, optimizer, analysis, builder, formatter) is decided by execution on valid,
   mutated and arbitrary inputs under all flag sets, see DESIGN.md; the analysis model (Prepare) is a
   total Gallina function, the real analysis is not polynomial (known finding). *)
From PV Require Import Lib.Base Model.MainExit.
Local Open Scope N_scope.

(* the decision as a boolean identity: walking down the cascade of exit_code one stage at a time, a failed stage
   gives a non-zero status and makes the right-hand side false, so both sides compute and the split stays linear *)
Lemma exit_zero_b s : N.eqb (exit_code s) 0 = (s_flags_ok s && s_help s) || accepted s.
Proof.
  destruct s as [flags help one input parse entry nobuild output build format write close]; cbn.
  destruct flags; [|reflexivity]. destruct help; [reflexivity|].
  destruct one; [|reflexivity]. destruct input; [|reflexivity]. destruct parse; [|reflexivity].
  destruct entry; [|reflexivity]. destruct nobuild; [destruct close; reflexivity|].
  destruct output; [|destruct close; reflexivity]. destruct build; [|destruct close; reflexivity].
  destruct format; [|destruct close; reflexivity]. destruct write; destruct close; reflexivity.
Qed.

Theorem C13_status_zero_iff_nothing_failed : forall s,
  exit_code s = 0 <-> (s_flags_ok s = true /\ s_help s = true) \/ accepted s = true.
Proof. intros s. rewrite <- N.eqb_eq, exit_zero_b, orb_true_iff, andb_true_iff. reflexivity. Qed.
Print Assumptions C13_status_zero_iff_nothing_failed.

Theorem C13_rejected_grammar_never_exits_zero : forall s,
  s_help s = false -> (s_parse_ok s = false \/ s_entry_ok s = false \/ (s_nobuild s = false /\ s_build_ok s = false)) ->
  exit_code s <> 0.
Proof.
  intros s Hh Hr. apply N.eqb_neq. rewrite exit_zero_b, Hh. unfold accepted.
  destruct Hr as [-> | [-> | [-> ->]]]; rewrite !andb_false_r; reflexivity.
Qed.
Print Assumptions C13_rejected_grammar_never_exits_zero.
