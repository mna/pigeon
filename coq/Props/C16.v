(* C16 - MaxExpressions bounds every parse. *)
From PV Require Import Lib.Base Syntax.RGrammar Model.PState Model.Runtime Spec.RefParse Proofs.Inv Proofs.Sim Proofs.TopLevel Proofs.Corollaries.

(* with MaxExpressions(n), n > 0, no reachable state has counted more than n expressions
   except the one in which the budget panic is raised (n + 1) *)
Theorem C16_budget_respected : forall c fuel e s,
  I c s -> o_maxexpr (cO c) <> 0%N ->
  match parseExprWrap c fuel e s with
  | Ok _ s' => (exprCnt s' <= o_maxexpr (cO c))%N
  | Panic _ s' => (exprCnt s' <= o_maxexpr (cO c) + 1)%N
  | OutOfFuel => True
  end.
Proof. exact budget_respected. Qed.
Print Assumptions C16_budget_respected.

Theorem C16_parse_budget : forall c fuel s',
  o_maxexpr (cO c) <> 0%N -> final_state (parse c fuel) = Some s' ->
  (exprCnt s' <= o_maxexpr (cO c) + 1)%N.
Proof. exact parse_budget. Qed.
Print Assumptions C16_parse_budget.

(* exhaustion is reported through the panic path: with Recover(true) it is recorded as one more
   error, the last before de-duplication, and the value is nil, with Recover(false) the panic
   reaches the caller *)
Theorem C16_exhaustion_reported : forall c fuel r en pv s',
  cG c <> [] -> entry_name c = Some en -> find_rule en (cG c) = Some r ->
  parseRuleWrap c (parseExprWrap c fuel) fuel r (read c (init_state c)) = Panic pv s' ->
  parse c fuel =
    if o_recover (cO c)
    then Returned VNil (dedupe (errs s' ++ [mkPerr pv (sp_pos (pt s')) (err_prefix c (sp_pos (pt s')) s') []])) (addErr c pv s')
    else Panicked pv s'.
Proof. intros c fuel r en pv s' _. apply parse_panic_contained. Qed.
Print Assumptions C16_exhaustion_reported.

(* with a budget that is not exhausted the result is that of the specification, whose
   counter is the same counter *)
Theorem C16_same_as_ref_under_budget : forall c,
  state_ok c -> o_memoize (cO c) = false -> G_wf c -> stale_ok c -> t_leftrec (cT c) = false ->
  forall fuel, obs_equiv (parse c fuel) (rparse c fuel).
Proof. exact parse_refines_rparse. Qed.
Print Assumptions C16_same_as_ref_under_budget.
