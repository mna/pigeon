(* C19 - Generation is deterministic. *)
From PV Require Import Lib.Base Model.Prepare Spec.LRRel Proofs.PrepareProofs Proofs.PrepareRefuted.

(* For a grammar without a left-recursive cycle the analysis result is the same - no flags
   at all - for every iteration order of the rules map (every order of ComputeNullables). *)
Theorem C19_cycle_free_order_independent : forall q g, ids_unique g ->
  ~ lr_cycle_rel g (negb (pq_pred q)) ->
  forall fuel ord1 ord2, prepare q g fuel ord1 = prepare q g fuel ord2.
Proof.
  intros q g Hu Hn fuel ord1 ord2. rewrite !(no_cycle_order_free q g Hu Hn). reflexivity.
Qed.
Print Assumptions C19_cycle_free_order_independent.

(* With left recursion the full statement is false of the pinned tree: the leader moves
   with the iteration order. *)
Theorem C19_refuted_nullable_order :
  prepare pinned g_order 100 [nS; nZ; nM] <> prepare pinned g_order 100 [nS; nM; nZ].
Proof. vm_compute. discriminate. Qed.
Print Assumptions C19_refuted_nullable_order.
