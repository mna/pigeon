(* C15 - -optimize-basic-latin is a pure optimisation of character classes. *)
From PV Require Import Lib.Base Model.PState Model.Runtime Model.Lower Proofs.LatinProofs Proofs.LatinRefuted.
Local Open Scope Z_scope.

(* For every class without the i flag - any characters, ranges, Unicode classes, ^ - and every
   Unicode library: the precomputed decision of each of the 128 Basic Latin runes equals the
   decision of the general matching procedure. *)
Theorem C15_table_equals_general_procedure_without_i : forall u chars ranges classes inv r,
  0 <= r < 128 ->
  table_decide (basic_latin u chars ranges classes false) inv r = slow_decide u chars ranges classes false inv r.
Proof. exact table_eq_slow_nofold. Qed.
Print Assumptions C15_table_equals_general_procedure_without_i.

(* For any class (also with i) the exhaustive comparison over the 128 runes is a decision
   procedure for the property: it is what the check runs on every class of a run. *)
Theorem C15_exhaustive_check_decides : forall u chars ranges classes ic inv,
  table_agrees_b u chars ranges classes ic inv = true <->
  forall r, 0 <= r < 128 ->
    table_decide (basic_latin u chars ranges classes ic) inv r = slow_decide u chars ranges classes ic inv r.
Proof. exact table_agrees_b_spec. Qed.
Print Assumptions C15_exhaustive_check_decides.

(* Non-ASCII runes and invalid bytes (U+FFFD, width 1) never use the table *)
Theorem C15_nonascii_same_path : forall c cv chars ranges classes ic inv table s,
  128 <= sp_rn (pt s) ->
  parseCharClassMatcher c cv chars ranges classes ic inv table s =
  (if is_eof s then cls_fail cv (pt s) s
   else if class_decide (cU c) chars ranges classes ic inv (sp_rn (pt s))
        then cls_match c cv (pt s) s else cls_fail cv (pt s) s).
Proof. exact nonascii_same_path. Qed.
Print Assumptions C15_nonascii_same_path.

(* With the i flag the full statement is false of the faithful model: witnesses. *)
(* [@-Z]i : the general procedure lower-cases the range ends to @-z and so matches '[' *)
Theorem C15_refuted_range : exists r, 0 <= r < 128 /\
  table_decide (basic_latin toy_ulib [] [64; 90] [] true) false r <> slow_decide toy_ulib [] [64; 90] [] true false r.
Proof. exists 91. split; [lia|]. vm_compute. discriminate. Qed.
Print Assumptions C15_refuted_range.

(* [\p{Lu}]i : the general procedure lower-cases the input rune and misses 'A' *)
Theorem C15_refuted_class : exists r, 0 <= r < 128 /\
  table_decide (basic_latin toy_ulib [] [] [[76%N; 117%N]] true) false r <> slow_decide toy_ulib [] [] [[76%N; 117%N]] true false r.
Proof. exists 65. split; [lia|]. vm_compute. discriminate. Qed.
Print Assumptions C15_refuted_class.

(* [K]i with U+212A KELVIN SIGN: the general procedure folds it to 'k', the table ignores it *)
Theorem C15_refuted_kelvin : exists r, 0 <= r < 128 /\
  table_decide (basic_latin toy_ulib [8490] [] [] true) false r <> slow_decide toy_ulib [8490] [] [] true false r.
Proof. exists 107. split; [lia|]. vm_compute. discriminate. Qed.
Print Assumptions C15_refuted_kelvin.
