(* The terminal-merging pass of the grammar optimizer (Model/OptMerge.v) preserves what a choice matches:
   for every flat choice of alternatives, the choice the optimizer leaves behind gives, under Ref, the same
   success/failure, value, end position and state from every position of every input.
   A terminal runs no code, so the offset at which it ends is a function of the offset at which it starts
   ([alt_end]); a flat choice of terminals ends where the first alternative that matches does ([choice_end],
   [choice_eval]); the pass and the cleanup leave that function as it is ([optimize_choice_end]), which is a
   statement about classes and lists, not about Ref. *)
From PV Require Import Lib.Base Syntax.RGrammar Syntax.Code Model.PState Model.Runtime Spec.Ref
  Proofs.RefMono Proofs.Determinacy Model.Lower Model.OptMerge.
From Coq Require Import Btauto.

(* cleanupCharClassMatcher keeps first occurrences: dedupe_z and dedupe_b of the model are [dedupe_by] at Z.eqb
   and bytes_eqb, dedupe_pairs is [dedupe_by] on the ranges read as pairs ([range_pairs_dedupe]) *)
Section Dedupe.
  Context {A : Type} (eqb : A -> A -> bool).

  Fixpoint dedupe_by (seen l : list A) : list A :=
    match l with
    | [] => []
    | x :: l' => if existsb (eqb x) seen then dedupe_by seen l' else x :: dedupe_by (x :: seen) l'
    end.

  Hypothesis eqb_eq : forall x y, eqb x y = true -> x = y.

  Lemma existsb_dedupe_seen p l : forall seen,
    existsb p (dedupe_by seen l) || existsb p seen = existsb p l || existsb p seen.
  Proof.
    induction l as [|y l IH]; intros seen; cbn [dedupe_by existsb]; [reflexivity|].
    destruct (existsb (eqb y) seen) eqn:E.
    - (* y is dropped, and is in seen: a test that y passes is passed there already *)
      rewrite IH. destruct (p y) eqn:Py; [|reflexivity].
      apply existsb_exists in E as (z & Hz & Ez). apply eqb_eq in Ez. subst z.
      replace (existsb p seen) with true by (symmetry; apply existsb_exists; eauto).
      rewrite !orb_true_r. reflexivity.
    - specialize (IH (y :: seen)). cbn [existsb] in IH |- *. destruct (p y); [reflexivity | exact IH].
  Qed.

  Lemma existsb_dedupe p l : existsb p (dedupe_by [] l) = existsb p l.
  Proof. pose proof (existsb_dedupe_seen p l []) as X. rewrite !orb_false_r in X. exact X. Qed.
End Dedupe.

Lemma dedupe_z_by : dedupe_z = dedupe_by Z.eqb.
Proof. reflexivity. Qed.
Lemma dedupe_b_by : dedupe_b = dedupe_by bytes_eqb.
Proof. reflexivity. Qed.

(* a list of odd length would pair its last bound with the first of what is appended: hence [wf_alt] *)
Lemma in_ranges_app cur r0 r1 : Nat.even (length r0) = true ->
  in_ranges cur (r0 ++ r1) = in_ranges cur r0 || in_ranges cur r1.
Proof.
  induction r0 as [|lo|lo hi r0 IH] using list_ind2; intros Hev; cbn [app in_ranges].
  - reflexivity.
  - discriminate.
  - rewrite IH; [apply orb_assoc | exact Hev].
Qed.

Lemma class_decide_app u c0 r0 k0 c1 r1 k1 ic cur : Nat.even (length r0) = true ->
  class_decide u (c0 ++ c1) (r0 ++ r1) (k0 ++ k1) ic false cur =
  class_decide u c0 r0 k0 ic false cur || class_decide u c1 r1 k1 ic false cur.
Proof.
  intros Hev. unfold class_decide. rewrite !existsb_app, in_ranges_app by exact Hev.
  (* with [rune] folded in a hidden type argument btauto takes one atom for two *)
  unfold rune. btauto.
Qed.

Lemma class_decide_snoc u cs w rs ks ic cur :
  class_decide u (cs ++ [w]) rs ks ic false cur =
  class_decide u cs rs ks ic false cur || Z.eqb (if ic then to_lower u cur else cur) w.
Proof. unfold class_decide. rewrite existsb_app. cbn [existsb]. unfold rune. btauto. Qed.

Lemma in_ranges_pairs cur l :
  in_ranges cur l = existsb (fun p => Z.leb (fst p) cur && Z.leb cur (snd p)) (range_pairs l).
Proof.
  induction l as [|lo|lo hi l IH] using list_ind2; cbn [in_ranges range_pairs existsb fst snd]; try reflexivity.
  rewrite IH; reflexivity.
Qed.

Lemma range_pairs_map f l : range_pairs (map f l) = map (fun p => (f (fst p), f (snd p))) (range_pairs l).
Proof.
  induction l as [|lo|lo hi l IH] using list_ind2; cbn [map range_pairs fst snd]; try reflexivity.
  rewrite IH; reflexivity.
Qed.

(* as dedupe_pairs tests a new range x against a remembered one p *)
Definition pair_eqb (x p : rune * rune) : bool := Z.eqb (fst p) (fst x) && Z.eqb (snd p) (snd x).

Lemma pair_eqb_eq x p : pair_eqb x p = true -> x = p.
Proof.
  destruct x, p. unfold pair_eqb. cbn [fst snd]. rewrite andb_true_iff, !Z.eqb_eq. intros [-> ->]. reflexivity.
Qed.

Lemma range_pairs_dedupe l : forall seen,
  range_pairs (dedupe_pairs seen l) = dedupe_by pair_eqb seen (range_pairs l).
Proof.
  induction l as [|lo|lo hi l IH] using list_ind2; intros seen; try reflexivity.
  (* the model's test, written with pair_eqb *)
  change (dedupe_pairs seen (lo :: hi :: l)) with
    (if existsb (pair_eqb (lo, hi)) seen then dedupe_pairs seen l else lo :: hi :: dedupe_pairs ((lo, hi) :: seen) l).
  cbn [range_pairs dedupe_by]. destruct (existsb (pair_eqb (lo, hi)) seen); cbn [range_pairs]; rewrite IH; reflexivity.
Qed.

Lemma class_decide_cleanup u cs rs ks ic inv (f : rune -> rune) cur :
  class_decide u (map f (dedupe_z [] cs)) (map f (dedupe_pairs [] rs)) (dedupe_b [] ks) ic inv cur =
  class_decide u (map f cs) (map f rs) ks ic inv cur.
Proof.
  unfold class_decide. rewrite !in_ranges_pairs, !range_pairs_map, range_pairs_dedupe, dedupe_z_by, dedupe_b_by, !existsb_map.
  rewrite !existsb_dedupe; [reflexivity | apply bytes_eqb_eq | exact pair_eqb_eq | apply Z.eqb_eq].
Qed.

(* The loop of both passes of the optimizer ([pass] and [spass] of Model/OptMerge.v are [gpass combine] and
   [gpass scombine], by conversion), for any way of combining two neighbours. *)
Section Loop.
  Context {A : Type} (comb : A -> A -> option A).

  Fixpoint gpass (prev : A) (rest : list A) : list A :=
    match rest with
    | [] => [prev]
    | x :: rest' =>
        match comb prev x with
        | Some m => m :: match rest' with [] => [] | y :: rest'' => gpass y rest'' end
        | None => prev :: gpass x rest'
        end
    end.

  Definition gpass_list (l : list A) : list A :=
    match l with [] => [] | a :: rest => gpass a rest end.

  (* The loop keeps an invariant of the items and stays within a relation between lists of them that is a
     congruence for ++, if combining two neighbours does. *)
  Variable P : A -> Prop.
  Variable rel : list A -> list A -> Prop.
  Hypothesis rel_refl : forall l, rel l l.
  Hypothesis rel_trans : forall l1 l2 l3, rel l1 l2 -> rel l2 l3 -> rel l1 l3.
  Hypothesis rel_app : forall a b l l', rel a b -> rel l l' -> rel (a ++ l) (b ++ l').
  Hypothesis comb_ok : forall a x m, comb a x = Some m -> P a -> P x -> P m /\ rel [a; x] [m].

  (* after a merge the loop goes on behind the merged item: that is gpass_list of what is left *)
  Lemma gpass_ok rest : Forall P rest ->
    (Forall P (gpass_list rest) /\ rel rest (gpass_list rest)) /\
    forall a, P a -> Forall P (gpass a rest) /\ rel (a :: rest) (gpass a rest).
  Proof.
    induction 1 as [|x rest Px _ [[W1 R1] IH]]; (split; [|intros a Pa]); cbn [gpass gpass_list]; auto.
    destruct (comb a x) as [m|] eqn:E.
    - destruct (comb_ok a x m E Pa Px) as [Pm Rm]. split; [auto | exact (rel_app [a; x] [m] _ _ Rm R1)].
    - destruct (IH x Px) as [W2 R2]. split; [auto | exact (rel_app [a] [a] _ _ (rel_refl _) R2)].
  Qed.

  Lemma iter_gpass_ok n : forall l, Forall P l -> Forall P (iter n gpass_list l) /\ rel l (iter n gpass_list l).
  Proof.
    induction n as [|n IH]; intros l W; [auto|].
    destruct (gpass_ok l W) as [[W1 R1] _]. destruct (IH _ W1) as [W2 R2]. eauto.
  Qed.
End Loop.

Section MergeLaws.
  Variable c : rdata.
  Hypothesis Hbud : o_maxexpr (rO c) = 0%N.
  Hypothesis Hact : forall id x y, ctx_eq x y -> out_eq (ce_act (rE c) id x) (ce_act (rE c) id y).
  Hypothesis Hpred : forall id x y, ctx_eq x y -> out_eq (ce_pred (rE c) id x) (ce_pred (rE c) id y).
  Hypothesis Hstate : forall id x y, ctx_eq x y -> out_eq (ce_state (rE c) id x) (ce_state (rE c) id y).
  Let U := rU c.

  (* an alternative that matches exactly one rune, and the test it makes on it (after the builder's lower-casing) *)
  Definition ok_of (a : alt) : option (rune -> bool) :=
    match lower_alt U a with
    | MLit [w] ic => Some (fun r => Z.eqb (if ic then to_lower U r else r) w)
    | MLit _ _ => None
    | MCls cs rs ks ic inv => Some (class_decide U cs rs ks ic inv)
    | MAny => Some (fun _ => true)
    end.

  (* e is an expression the builder can emit for a (node number, text shown in errors and lookup table are free) *)
  Definition denotes (a : alt) (e : expr) : Prop :=
    match lower_alt U a, e with
    | MLit rs ic, ELit _ rs' ic' _ => rs' = rs /\ ic' = ic
    | MCls cs rs ks ic inv, ECls _ _ cs' rs' ks' ic' inv' _ => cs' = cs /\ rs' = rs /\ ks' = ks /\ ic' = ic /\ inv' = inv
    | MAny, EAny _ => True
    | _, _ => False
    end.

  (* Where a terminal ends, if it matches: [rune_end] and [lit_end] are [step_rune] and [lit_match] of Ref without
     the history, which those only write ([step_rune_end], [lit_match_end]). *)
  Definition rune_end (ok : rune -> bool) (o : nat) : option nat :=
    let '(r, w) := rune_at c o in if negb (Nat.eqb w 0) && ok r then Some (o + w) else None.

  Fixpoint lit_end (ic : bool) (rs : list rune) (o : nat) : option nat :=
    match rs with
    | [] => Some o
    | w :: rs' =>
        match rune_end (fun r => Z.eqb (if ic then to_lower (rU c) r else r) w) o with
        | Some o' => lit_end ic rs' o'
        | None => None
        end
    end.

  Definition alt_end (a : alt) : nat -> option nat :=
    match lower_alt U a with
    | MLit rs ic => lit_end ic rs
    | MCls cs rs ks ic inv => rune_end (class_decide U cs rs ks ic inv)
    | MAny => rune_end (fun _ => true)
    end.

  Fixpoint choice_end (l : list alt) (o : nat) : option nat :=
    match l with
    | [] => None
    | a :: l' => match alt_end a o with Some o' => Some o' | None => choice_end l' o end
    end.

  Definition matched (r : option nat) (sc : scope) (g : rsig) (m : rmu) : rres :=
    match r with
    | Some o' => ROk (VBytes (slice c (g_off g) o')) (mkSig o' (g_st g)) sc m
    | None => RFail m
    end.

  Lemma step_rune_end R o m ok : option_map fst (step_rune c R o m ok) = rune_end ok o.
  Proof.
    unfold step_rune, rune_end. destruct (rune_at c o) as [r w].
    destruct (Nat.eqb w 0); [reflexivity|]. destruct (ok r); reflexivity.
  Qed.

  Lemma lit_match_end R ic rs : forall o m, option_map fst (fst (lit_match c R ic rs o m)) = lit_end ic rs o.
  Proof.
    induction rs as [|w rs IH]; intros o m; cbn [lit_match lit_end]; [reflexivity|].
    rewrite <- (step_rune_end R o m). destruct (step_rune c R o m _) as [[o1 m1]|]; [apply IH | reflexivity].
  Qed.

  Lemma term_result_matched R inv want sc g m res mf :
    exists m', term_result c R inv want sc g m res mf = matched (option_map fst res) sc g m'.
  Proof. destruct res as [[o' m1]|]; cbn; eauto. Qed.

  Lemma rune_end_ext ok ok' o : (forall r, ok r = ok' r) -> rune_end ok o = rune_end ok' o.
  Proof. intros E. unfold rune_end. destruct (rune_at c o) as [r w]. rewrite E. reflexivity. Qed.

  Lemma rune_end_or ok1 ok2 okm o : (forall r, okm r = ok1 r || ok2 r) ->
    rune_end okm o = match rune_end ok1 o with Some o' => Some o' | None => rune_end ok2 o end.
  Proof.
    intros Hor. unfold rune_end. destruct (rune_at c o) as [r w]. rewrite Hor.
    destruct (Nat.eqb w 0), (ok1 r), (ok2 r); reflexivity.
  Qed.

  Lemma lit_end_app ic rs1 rs2 : forall o,
    lit_end ic (rs1 ++ rs2) o = match lit_end ic rs1 o with Some o1 => lit_end ic rs2 o1 | None => None end.
  Proof.
    induction rs1 as [|w rs1 IH]; intros o; cbn [app lit_end]; [reflexivity|].
    destruct (rune_end _ o); [apply IH | reflexivity].
  Qed.

  Lemma lit_end_le ic rs : forall o o', lit_end ic rs o = Some o' -> o <= o'.
  Proof.
    induction rs as [|w rs IH]; intros o o'; cbn [lit_end]; [intros [= <-]; apply Nat.le_refl|].
    unfold rune_end. destruct (rune_at c o) as [r wd]. destruct (_ && _); [|discriminate].
    intros E. exact (Nat.le_trans _ _ _ (Nat.le_add_r o wd) (IH _ _ E)).
  Qed.

  Lemma alt_end_one a ok : ok_of a = Some ok -> forall o, alt_end a o = rune_end ok o.
  Proof.
    unfold ok_of, alt_end. destruct (lower_alt U a) as [[|w [|]] ic| |]; intros [= <-] o; try reflexivity.
    cbn [lit_end]. destruct (rune_end _ o); reflexivity.
  Qed.

  Lemma choice_end_app l1 l2 o :
    choice_end (l1 ++ l2) o = match choice_end l1 o with Some o' => Some o' | None => choice_end l2 o end.
  Proof. induction l1 as [|a l1 IH]; cbn [app choice_end]; [reflexivity|]. destruct (alt_end a o); auto. Qed.

  Section Fuel.
    Variable f : nat.
    Let ev := reval c (S f).

    Definition terminal (e : expr) (reach : nat -> option nat) : Prop :=
      forall H R inv sc g m, exists m', ev H R inv e sc g m = matched (reach (g_off g)) sc g m'.

    Lemma lit_terminal n rs ic want : terminal (ELit n rs ic want) (lit_end ic rs).
    Proof.
      intros H R inv sc g m. unfold ev. rewrite (reval_S_nobudget c Hbud). cbn [reval_body].
      rewrite <- (lit_match_end R ic rs (g_off g) (tick m)). destruct (lit_match c R ic rs _ _) as [res mf].
      apply term_result_matched.
    Qed.

    Lemma denotes_terminal a e : denotes a e -> terminal e (alt_end a).
    Proof.
      unfold denotes, alt_end. destruct (lower_alt U a); destruct e; try contradiction.
      - intros [-> ->]. apply lit_terminal.
      - intros (-> & -> & -> & -> & ->) H R i sc g m. unfold ev. rewrite (reval_S_nobudget c Hbud).
        rewrite <- (step_rune_end R (g_off g) (tick m)). apply term_result_matched.
      - intros _ H R i sc g m. unfold ev. rewrite (reval_S_nobudget c Hbud).
        rewrite <- (step_rune_end R (g_off g) (tick m)). apply term_result_matched.
    Qed.

    Lemma terminal_complete a e ok H R inv sc g m : denotes a e -> ok_of a = Some ok ->
      match ev H R inv e sc g m with
      | ROk _ _ _ _ => True
      | RFail _ => True
      | _ => False
      end.
    Proof using Hbud.
      intros Hd _. destruct (denotes_terminal a e Hd H R inv sc g m) as [m' ->].
      destruct (alt_end a (g_off g)); exact I.
    Qed.

    Lemma choice_eval l L : Forall2 denotes l L -> forall H R inv sc g m,
      exists m', ralt ev H R inv L sc g m = matched (choice_end l (g_off g)) sc g m'.
    Proof.
      induction 1 as [|a e l L Hd _ IH]; intros H R inv sc g m; cbn [ralt choice_end]; [cbn; eauto|].
      destruct (denotes_terminal a e Hd H R inv [] g m) as [m1 ->].
      destruct (alt_end a (g_off g)); cbn [matched]; [eauto | apply IH].
    Qed.

    Definition Req (L1 L2 : list expr) : Prop :=
      forall H R inv sc g m m', res_eq (ralt ev H R inv L1 sc g m) (ralt ev H R inv L2 sc g m').

    (* e is any expression and may run code: the one place in this file where the outcome's independence of the
       history is needed; choices of terminals do without ([choice_eval]) *)
    Lemma Req_cons e L1 L2 : Req L1 L2 -> Req (e :: L1) (e :: L2).
    Proof using Hbud Hact Hpred Hstate.
      intros X H R inv sc g m m'. cbn [ralt].
      pose proof (outcome_is_history_independent c Hbud Hact Hpred Hstate (S f) H R inv e [] g m m') as Y. fold ev in Y.
      destruct (ev H R inv e [] g m), (ev H R inv e [] g m'); try contradiction; cbn [res_eq]; auto.
      destruct Y as (-> & -> & _). auto.
    Qed.

    Definition wf_alt (a : alt) : Prop :=
      match a with MCls _ rs _ _ _ => Nat.even (length rs) = true | _ => True end.

    Lemma combine_ok a x m : combine a x = Some m -> wf_alt a -> wf_alt x ->
      wf_alt m /\ exists ok1 ok2 okm, ok_of a = Some ok1 /\ ok_of x = Some ok2 /\ ok_of m = Some okm /\
                                   forall r, okm r = ok1 r || ok2 r.
    Proof.
      intros Hc Wa Wx.
      destruct a as [[|w1 [|? ?]] i0|c0 r0 k0 i0 v0|]; try discriminate;
        destruct x as [[|w2 [|? ?]] i1|c1 r1 k1 i1 v1|]; try discriminate.
      - (* "a" / "b" *)
        destruct i0, i1; try discriminate; injection Hc as <-.
        all: split.
        all: do 3 eexists; repeat (split; [reflexivity|]); intros r.
        all: unfold class_decide; cbn [map existsb in_ranges]; btauto.
      - (* "a" / [bc] *)
        destruct i0, i1, v1; try discriminate; injection Hc as <-.
        all: split; [exact Wx|].
        all: do 3 eexists; repeat (split; [reflexivity|]); intros r.
        all: rewrite ?map_app; cbn [map]; rewrite class_decide_snoc; apply orb_comm.
      - (* [ab] / "c" *)
        destruct i0, i1, v0; try discriminate; injection Hc as <-.
        all: split; [exact Wa|].
        all: do 3 eexists; repeat (split; [reflexivity|]).
        all: rewrite ?map_app; apply class_decide_snoc.
      - (* [ab] / [cd] *)
        destruct i0, i1, v0, v1; try discriminate; injection Hc as <-; cbn [wf_alt] in *.
        all: split; [rewrite app_length, Nat.even_add, Wa, Wx; reflexivity|].
        all: do 3 eexists; repeat (split; [reflexivity|]); intros r.
        all: rewrite ?map_app; apply class_decide_app; rewrite ?map_length; exact Wa.
    Qed.

    Lemma iter_end n l : Forall wf_alt l ->
      Forall wf_alt (iter n pass_list l) /\ forall o, choice_end l o = choice_end (iter n pass_list l) o.
    Proof.
      apply (iter_gpass_ok combine wf_alt (fun l l' => forall o, choice_end l o = choice_end l' o)).
      - reflexivity.
      - intros l1 l2 l3 X Y o. rewrite X. apply Y.
      - intros a b l1 l2 X Y o. rewrite !choice_end_app, X, Y. reflexivity.
      - intros a x m E Wa Wx. destruct (combine_ok a x m E Wa Wx) as (Wm & ok1 & ok2 & okm & E1 & E2 & Em & Hor).
        split; [exact Wm|]. intros o. cbn [choice_end].
        rewrite (alt_end_one a ok1 E1), (alt_end_one x ok2 E2), (alt_end_one m okm Em), (rune_end_or ok1 ok2 okm o Hor).
        destruct (rune_end ok1 o), (rune_end ok2 o); reflexivity.
    Qed.

    Lemma iter_wf n : forall l, Forall wf_alt l -> Forall wf_alt (iter n pass_list l).
    Proof using c. intros l W. apply (iter_end n l W). Qed.

    Lemma cleanup_end a o : alt_end (cleanup a) o = alt_end a o.
    Proof.
      destruct a as [rs ic|cs rs ks ic iv|]; try reflexivity.
      destruct ic; apply rune_end_ext; intros r.
      - apply class_decide_cleanup.
      - pose proof (class_decide_cleanup U cs rs ks false iv (fun x => x) r) as X. rewrite !map_id in X. exact X.
    Qed.

    Lemma optimize_choice_end l : Forall wf_alt l -> forall o, choice_end (optimize_choice l) o = choice_end l o.
    Proof.
      intros W o. unfold optimize_choice. rewrite (proj2 (iter_end (length l) l W) o).
      induction (iter (length l) pass_list l) as [|a l' IH]; cbn [map choice_end]; [reflexivity|].
      rewrite cleanup_end, IH. reflexivity.
    Qed.
  End Fuel.

  (* the statement for Ref itself: the choice before and after the pass, whatever was evaluated before *)
  Theorem merge_pass_preserves_choice l L L' :
    Forall wf_alt l -> Forall2 denotes l L -> Forall2 denotes (optimize_choice l) L' ->
    forall f H R inv n n' sc g m m',
      res_eq (reval c (S (S f)) H R inv (EAlt n L) sc g m) (reval c (S (S f)) H R inv (EAlt n' L') sc g m').
  Proof.
    intros W HL HL' f H R inv n n' sc g m m'. rewrite !(reval_S_nobudget c Hbud). cbn [reval_body].
    destruct (choice_eval f l L HL H R inv sc g (tick m)) as [m1 ->], (choice_eval f _ L' HL' H R inv sc g (tick m')) as [m2 ->].
    rewrite (optimize_choice_end l W). destruct (choice_end l (g_off g)); cbn; auto.
  Qed.

  Theorem single_alternative a e : denotes a e ->
    forall f H R inv n sc g m m',
      res_eq (reval c (S (S f)) H R inv (EAlt n [e]) sc g m) (reval c (S f) H R inv e sc g m').
  Proof.
    intros Hd f H R inv n sc g m m'. rewrite (reval_S_nobudget c Hbud (S f)). cbn [reval_body ralt].
    destruct (denotes_terminal f a e Hd H R inv [] g (tick m)) as [m1 ->], (denotes_terminal f a e Hd H R inv sc g m') as [m2 ->].
    destruct (alt_end a (g_off g)); cbn; auto.
  Qed.
End MergeLaws.
