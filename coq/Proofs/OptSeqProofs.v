(* The literal-concatenating pass of the grammar optimizer over the items of a sequence (Model/OptMerge.v, spass)
   preserves what the sequence matches and the text of its value: success, end position, state and label scope are
   the same, and so are the values once their leaves are taken and adjacent matched texts joined ([text_of]).
   The loop is the one of the merging pass ([iter_gpass_ok]).  An item that is not a literal is any expression, so
   the relation the loop stays within ([SReq]) rests on Ref's history independence. *)
From PV Require Import Lib.Base Syntax.RGrammar Syntax.Code Model.Runtime Spec.Ref
  Proofs.RefMono Proofs.Determinacy Proofs.OptLaws Model.OptMerge Proofs.OptMergeProofs.

Definition push (x : val) (l : list val) : list val :=
  match x, l with
  | VBytes b, VBytes b' :: l' => VBytes (b ++ b') :: l'
  | _, _ => x :: l
  end.

Definition norm (l : list val) : list val := fold_right push [] l.

(* the leaves of a value with adjacent texts joined *)
Definition text_of (v : val) : list val := norm (leaves v).

Lemma push_fold r x n : fold_right push r (push x n) = push x (fold_right push r n).
Proof.
  destruct x as [|b|l|z|s]; try reflexivity.
  destruct n as [|[|b'|l'|z'|s'] n']; try reflexivity.
  cbn [push fold_right].
  destruct (fold_right push r n') as [|[|b''|l''|z''|s''] t]; try reflexivity.
  rewrite app_assoc. reflexivity.
Qed.

Lemma fold_norm r a : fold_right push r a = fold_right push r (norm a).
Proof.
  induction a as [|x a IH]; [reflexivity|].
  cbn [fold_right norm]. fold (norm a). rewrite push_fold, <- IH. reflexivity.
Qed.

Lemma norm_app a t : norm (a ++ t) = fold_right push (norm t) (norm a).
Proof. unfold norm at 1. rewrite fold_right_app. apply fold_norm. Qed.

Lemma norm_two b1 b2 : norm [VBytes b1; VBytes b2] = norm [VBytes (b1 ++ b2)].
Proof. reflexivity. Qed.

Section SeqLaws.
  Variable c : rdata.
  Hypothesis Hbud : o_maxexpr (rO c) = 0%N.
  Hypothesis Hact : forall id x y, ctx_eq x y -> out_eq (ce_act (rE c) id x) (ce_act (rE c) id y).
  Hypothesis Hpred : forall id x y, ctx_eq x y -> out_eq (ce_pred (rE c) id x) (ce_pred (rE c) id y).
  Hypothesis Hstate : forall id x y, ctx_eq x y -> out_eq (ce_state (rE c) id x) (ce_state (rE c) id y).
  Let U := rU c.
  (* the expressions that are not literals, by their place *)
  Variable others : nat -> expr.

  Definition lower_rs (rs : list rune) (ic : bool) : list rune := if ic then map (to_lower U) rs else rs.

  Definition sdenotes (a : item) (e : expr) : Prop :=
    match a, e with
    | ILit rs ic, ELit _ rs' ic' _ => rs' = lower_rs rs ic /\ ic' = ic
    | IOther k, _ => e = others k
    | _, _ => False
    end.

  (* One of the expressions emitted for an item.  The pass is followed on these; any two lists of expressions
     emitted for the same items are equivalent ([sdenotes_same_list]). *)
  Definition smk (a : item) : expr :=
    match a with ILit rs ic => ELit 0%N (lower_rs rs ic) ic [] | IOther k => others k end.

  Lemma sdenotes_all l : Forall2 sdenotes l (map smk l).
  Proof. induction l as [|[|] l IH]; constructor; cbn; auto. Qed.

  Lemma lower_rs_app x y ic : lower_rs (x ++ y) ic = lower_rs x ic ++ lower_rs y ic.
  Proof. destruct ic; [apply map_app | reflexivity]. Qed.

  (* same success/failure, position, state and scope; values equal up to joining adjacent texts *)
  Definition sres_eq (x y : rres) : Prop :=
    match x, y with
    | RFail _, RFail _ => True
    | ROk v g sc _, ROk v' g' sc' _ => text_of v = text_of v' /\ g = g' /\ sc = sc'
    | RPanic pv _ pos R, RPanic pv' _ pos' R' => pv = pv' /\ pos = pos' /\ R = R'
    | ROut, ROut => True
    | _, _ => False
    end.

  Lemma sres_eq_trans x y z : sres_eq x y -> sres_eq y z -> sres_eq x z.
  Proof.
    destruct x, y; intros X; try contradiction; cbn [sres_eq]; intros Y; try contradiction; auto.
    all: destruct X as (-> & -> & ->); exact Y.
  Qed.

  Lemma res_sres_eq x y : res_eq x y -> sres_eq x y.
  Proof. destruct x, y; cbn [res_eq sres_eq]; auto. intros (-> & -> & ->). auto. Qed.

  Lemma text_of_VList l : text_of (VList l) = norm (leaves_list l).
  Proof. unfold text_of. rewrite leaves_VList. reflexivity. Qed.

  Lemma slice_add a b d : a <= b -> b <= d -> slice c a b ++ slice c b d = slice c a d.
  Proof.
    intros Hab Hbd. unfold slice.
    replace (d - a) with ((b - a) + (d - b)) by lia.
    rewrite <- (firstn_skipn (b - a) (firstn (b - a + (d - b)) (skipn a (rData c)))).
    rewrite firstn_firstn, Nat.min_l by lia.
    rewrite skipn_firstn_comm. replace (b - a + (d - b) - (b - a)) with (d - b) by lia.
    rewrite skipn_skipn'. replace (a + (b - a)) with b by lia. reflexivity.
  Qed.

  Section Fuel.
    Variable f : nat.
    Let ev := reval c (S f).

    Definition SReq (L1 L2 : list expr) : Prop :=
      forall H R inv sc g m m', sres_eq (rseq ev H R inv L1 [] sc g m) (rseq ev H R inv L2 [] sc g m').

    Lemma SReq_refl L : SReq L L.
    Proof.
      intros H R inv sc g m m'. apply res_sres_eq, rseq_eq.
      apply (outcome_is_history_independent c Hbud Hact Hpred Hstate).
    Qed.

    Lemma SReq_trans A B D : SReq A B -> SReq B D -> SReq A D.
    Proof. intros X Y H R inv sc g m m'. eapply sres_eq_trans; [apply (X H R inv sc g m m) | apply Y]. Qed.

    Lemma SReq_app A B L1 L2 : SReq A B -> SReq L1 L2 -> SReq (A ++ L1) (B ++ L2).
    Proof.
      intros X Y H R inv sc g m m'. rewrite !rseq_app. specialize (X H R inv sc g m m').
      destruct (rseq ev H R inv A [] sc g m) as [|v g1 s1 m1| |] eqn:EA, (rseq ev H R inv B [] sc g m') as [|v' g2 s2 m2| |] eqn:EB;
          try contradiction; try exact X.
      destruct X as (Hv & <- & <-). apply rseq_is_list in EA as [vs ->], EB as [vs' ->]. cbn [rev app] in Hv |- *.
      (* the second parts run with the values of the first as accumulator: they are prepended to what they return *)
      rewrite (rseq_acc ev H R inv L1 [] (rev vs)), (rseq_acc ev H R inv L2 [] (rev vs')), !rev_involutive.
      specialize (Y H R inv s1 g1 m1 m2).
      destruct (rseq ev H R inv L1 [] s1 g1 m1) as [|w g3 s3 m3| |] eqn:E1, (rseq ev H R inv L2 [] s1 g1 m2) as [|w' g4 s4 m4| |] eqn:E2;
          try contradiction; try exact Y.
      destruct Y as (Hw & <- & <-). apply rseq_is_list in E1 as [ws ->], E2 as [ws' ->]. cbn [rev app sres_eq] in Hw |- *.
      rewrite !text_of_VList in *. rewrite !leaves_list_app, !norm_app, Hv, Hw. auto.
    Qed.

    Lemma SReq_concat n1 n2 nm rs1 rs2 ic w1 w2 wm :
      SReq [ELit n1 rs1 ic w1; ELit n2 rs2 ic w2] [ELit nm (rs1 ++ rs2) ic wm].
    Proof.
      intros H R inv sc g m m'. cbn [rseq]. unfold ev.
      destruct (lit_terminal c Hbud f n1 rs1 ic w1 H R inv sc g m) as [m1 ->],
               (lit_terminal c Hbud f nm (rs1 ++ rs2) ic wm H R inv sc g m') as [mm ->].
      rewrite lit_end_app. destruct (lit_end c ic rs1 (g_off g)) as [o1|] eqn:E1; cbn [matched]; [|exact I].
      destruct (lit_terminal c Hbud f n2 rs2 ic w2 H R inv sc (mkSig o1 (g_st g)) m1) as [m2 ->]. cbn [g_off g_st].
      destruct (lit_end c ic rs2 o1) as [o2|] eqn:E2; cbn [matched sres_eq]; [|exact I].
      apply lit_end_le in E1, E2. rewrite <- (slice_add (g_off g) o1 o2 E1 E2). split; [apply norm_two | auto].
    Qed.

    Lemma sdenotes_same a e e' : sdenotes a e -> sdenotes a e' -> SReq [e] [e'].
    Proof.
      destruct a as [rs ic|k]; cbn [sdenotes]; [|intros -> ->; apply SReq_refl].
      destruct e as [n ? ? want| | | | | | | | | | | | | | | | |]; try contradiction.
      destruct e' as [n' ? ? want'| | | | | | | | | | | | | | | | |]; try contradiction. intros [-> ->] [-> ->] H R inv sc g m m'.
      cbn [rseq]. unfold ev.
      destruct (lit_terminal c Hbud f n (lower_rs rs ic) ic want H R inv sc g m) as [m1 ->],
               (lit_terminal c Hbud f n' (lower_rs rs ic) ic want' H R inv sc g m') as [m2 ->].
      destruct (lit_end c ic (lower_rs rs ic) (g_off g)); cbn; auto.
    Qed.

    Lemma sdenotes_same_list l L : Forall2 sdenotes l L -> forall L', Forall2 sdenotes l L' -> SReq L L'.
    Proof.
      induction 1 as [|a e l L Hd _ IH]; intros L' HL'; inversion HL' as [|? e' ? L2 Hd' HL2]; [apply SReq_refl|].
      apply (SReq_app [e] [e']); [exact (sdenotes_same a e e' Hd Hd') | apply IH, HL2].
    Qed.

    Lemma iter_SReq n l : SReq (map smk l) (map smk (iter n spass_list l)).
    Proof.
      refine (proj2 (iter_gpass_ok scombine (fun _ => True) (fun l l' => SReq (map smk l) (map smk l')) _ _ _ _ n l _)).
      - intros. apply SReq_refl.
      - intros l1 l2 l3. apply SReq_trans.
      - intros. rewrite !map_app. apply SReq_app; assumption.
      - intros [x i0|] [y i1|] m E _ _; try discriminate. cbn [scombine] in E.
        destruct (Bool.eqb i0 i1) eqn:Ei; [|discriminate]. apply eqb_prop in Ei. subst i1. injection E as <-.
        split; [exact I|]. cbn [map smk]. rewrite lower_rs_app. apply SReq_concat.
      - apply Forall_forall. trivial.
    Qed.
  End Fuel.

  (* the statement for Ref itself: the sequence before and after the pass, whatever was evaluated before *)
  Theorem concat_pass_preserves_sequence l L L' :
    Forall2 sdenotes l L -> Forall2 sdenotes (optimize_seq l) L' ->
    forall f H R inv n n' sc g m m',
      sres_eq (reval c (S (S f)) H R inv (ESeq n L) sc g m) (reval c (S (S f)) H R inv (ESeq n' L') sc g m').
  Proof.
    intros HL HL' f H R inv n n' sc g m m'. rewrite !(reval_S_nobudget c Hbud).
    apply (SReq_trans f L (map smk l) L'); [exact (sdenotes_same_list f l L HL _ (sdenotes_all l))|].
    apply (SReq_trans f _ (map smk (optimize_seq l)) L'); [apply iter_SReq | exact (sdenotes_same_list f _ _ (sdenotes_all _) L' HL')].
  Qed.

  Theorem single_item e f H R inv n sc g m m' :
    sres_eq (reval c (S (S f)) H R inv (ESeq n [e]) sc g m) (reval c (S f) H R inv e sc g m').
  Proof.
    rewrite (reval_S_nobudget c Hbud (S f)). cbn [reval_body rseq].
    pose proof (outcome_is_history_independent c Hbud Hact Hpred Hstate (S f) H R inv e sc g (tick m) m') as Y.
    destruct (reval c (S f) H R inv e sc g (tick m)), (reval c (S f) H R inv e sc g m'); try contradiction;
      cbn [sres_eq rev app]; auto.
    destruct Y as (-> & -> & ->). split; [|auto].
    rewrite text_of_VList. unfold leaves_list. cbn [map concat]. rewrite app_nil_r. reflexivity.
  Qed.
End SeqLaws.
