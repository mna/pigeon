(* The refinement, kind by kind.  Each kind of expression establishes [simr] (Sim.v) of its case of parseExpr and its
   case of reval_body, from the same for its sub-expressions.  A caller sees a sub-evaluation through a view, whose
   destruction gives exactly the cases that can occur together: [called] (wrap e), [scoped] (pushV; wrap e; popV),
   [reps] (the repetition loop), [ran] (a code block), [cloned] (cloneState).  The last cases of the first three are the
   panic and the end of the fuel, which every kind passes on as they are: [constructor; assumption] closes them. *)
From PV Require Import Lib.Base Syntax.RGrammar Syntax.Code Model.PState Spec.Pos Model.Runtime Spec.Ref
  Spec.RefParse Proofs.Utf8Proofs Proofs.ReadProofs Proofs.PosProofs Proofs.Inv Proofs.InvStep Proofs.Sim.

(* Sim speaks of the state through twelve projections, and a primitive changes one or two of them.
   Given S : Sim c s ..., [same_but S] reduces Sim for a state built from s by setters to the fields that differ. *)
Ltac same_but S := constructor; cbn; try apply S.

(* the specification reads a configuration through the coercion rd: expose the fields *)
Ltac unrd := cbn [rd rData rU rO rG rE].

Section SimState.
  Context {c : cfg} {s : pstate} {sc : scope} {g : rsig} {m : rmu} {H : handlers} {R : option rule} {inv : bool}
          (S : Sim c s sc g m H R inv).

  Lemma Sim_pos : sp_pos (pt s) = pos_of (cData c) (g_off g).
  Proof. rewrite <- (S_off S). apply reach_pos_of, S. Qed.

  Lemma Sim_to_P : SimP c s m (pos_of (cData c) (g_off g)) R.
  Proof. constructor; try apply S. apply Sim_pos. Qed.

  Lemma Sim_rune : rune_at c (g_off g) = (sp_rn (pt s), sp_w (pt s)).
  Proof.
    destruct (reach_ok _ _ (S_reach S)) as (A & B & _). rewrite B, A, <- (S_off S). reflexivity.
  Qed.

  Lemma Sim_eof_rune : sp_w (pt s) = 0 -> sp_rn (pt s) = RuneError.
  Proof. exact (sp_ok_eof _ _ (reach_ok _ _ (S_reach S))). Qed.

  Lemma Sim_eof : is_eof s = Nat.eqb (sp_w (pt s)) 0.
  Proof.
    unfold is_eof. destruct (Nat.eqb_spec (sp_w (pt s)) 0) as [E|_]; [|apply andb_false_r].
    rewrite (Sim_eof_rune E). reflexivity.
  Qed.

  Lemma Sim_slice s2 : sliceFrom (pt s) s2 = slice c (g_off g) (cur_off s2).
  Proof.
    unfold sliceFrom. rewrite (proj1 (reach_ok _ _ (S_reach S))), <- (S_off S). reflexivity.
  Qed.

  Lemma Sim_ctx id : block_ctx c id s = block_ctx_ref c id (cur_text s) (cur_pos s) sc g m.
  Proof.
    unfold block_ctx, top_scope. destruct (S_top S) as [vs ->]. rewrite (S_st S), (S_gs S). reflexivity.
  Qed.

  Lemma Sim_vstack sc' vs : Sim c (set_vstack (sc' :: vs) s) sc' g m H R inv.
  Proof. same_but S. exists vs. reflexivity. Qed.

  Lemma Sim_popV sc' vs : tl (vstack s) = sc' :: vs -> Sim c (popV s) sc' g m H R inv.
  Proof. intros E. unfold popV. rewrite E. apply Sim_vstack. Qed.

  Lemma Sim_flip : Sim c (set_maxFailInvert (negb (maxFailInvert s)) s) sc g m H R (negb inv).
  Proof. same_but S. rewrite (S_inv S). reflexivity. Qed.

  Lemma Sim_cur t p : Sim c (set_cur_text t (set_cur_pos p s)) sc g m H R inv.
  Proof. same_but S. Qed.

  Lemma Sim_rcv H' : Sim c (set_rcvstack H' s) sc g m H' R inv.
  Proof. same_but S. reflexivity. Qed.

  Lemma Sim_rule rs : Sim c (set_rstack rs s) sc g m H (hd_error rs) inv.
  Proof. same_but S. reflexivity. Qed.

  Lemma Sim_cnt n : Sim c (set_exprCnt n s) sc g (mkMu (u_gs m) (u_log m) n) H R inv.
  Proof. same_but S. reflexivity. Qed.

  Lemma Sim_addErrAt msg pos : Sim c (addErrAt c msg pos [] s) sc g (log (RErr msg pos R) m) H R inv.
  Proof. same_but S. rewrite (S_errs S), err_prefix_ref, (S_rule S). reflexivity. Qed.

  Lemma Sim_addErr msg : Sim c (addErr c msg s) sc g (log (RErr msg (pos_of (cData c) (g_off g)) R) m) H R inv.
  Proof. unfold addErr. rewrite Sim_pos. apply Sim_addErrAt. Qed.

  Lemma Sim_log_err err :
    Sim c (match err with Some msg => addErr c msg s | None => s end) sc g
        (log_err err (pos_of (cData c) (g_off g)) R m) H R inv.
  Proof. destruct err; [apply Sim_addErr | exact S]. Qed.

  (* going back to an earlier save point: Ref simply keeps using the earlier position *)
  Lemma Sim_restore p g0 : reach (cData c) p -> offset (sp_pos p) = g_off g0 -> g_st g0 = g_st g ->
    Sim c (restore p s) sc g0 m H R inv.
  Proof.
    intros Hr Ho Hs. unfold restore. destruct (Nat.eqb_spec (offset (sp_pos p)) (cur_off s)) as [E|_]; same_but S.
    - (* S_off *) rewrite <- E. exact Ho.
    - (* S_st *) rewrite Hs. apply S.
    - (* S_reach *) exact Hr.
    - (* S_off *) exact Ho.
    - (* S_st *) rewrite Hs. apply S.
  Qed.

  Lemma Sim_restoreState x g0 : g_off g0 = g_off g ->
    (has_state (cT c) = true -> x = g_st g0) -> (has_state (cT c) = false -> g_st g = g_st g0) ->
    Sim c (restoreState c x s) sc g0 m H R inv.
  Proof.
    intros Eo Hx Hg. unfold restoreState. destruct (has_state (cT c)); same_but S.
    - (* S_off *) rewrite Eo. apply S.
    - (* S_st *) apply Hx. reflexivity.
    - (* S_off *) rewrite Eo. apply S.
    - (* S_st *) rewrite <- Hg by reflexivity. apply S.
  Qed.
End SimState.

Section SimPrim.
  Variable c : cfg.
  Let d := cData c.

  Lemma Sim_rollback {s sc g m H R inv} p x g0 :
    Sim c s sc g m H R inv -> reach d p -> offset (sp_pos p) = g_off g0 ->
    (has_state (cT c) = true -> x = g_st g0) -> (has_state (cT c) = false -> g_st g = g_st g0) ->
    Sim c (restore p (restoreState c x s)) sc g0 m H R inv.
  Proof.
    intros S Hr Ho Hx Hg.
    exact (Sim_restore (Sim_restoreState S x (mkSig (g_off g) (g_st g0)) eq_refl Hx Hg) p g0 Hr Ho eq_refl).
  Qed.

  Lemma I_rollback p x s2 : I c s2 -> sp_ok d p -> I c (restore p (restoreState c x s2)).
  Proof.
    intros HI Hp. destruct (StepEq_restoreState c x s2 HI) as [[[A B C0] _] _].
    unfold restore. destruct (Nat.eqb _ _); constructor; assumption.
  Qed.

  (* read is Ref's "advance and land": once the save point has moved, only an invalid byte is left to report *)
  Lemma Sim_land {s sc g m H R inv} : Sim c (set_pt (adv (pt s)) s) sc g m H R inv ->
    Sim c (read c s) sc g (land c R (g_off g) m) H R inv.
  Proof.
    intros S1. unfold land, read. unrd. rewrite (Sim_rune S1).
    destruct (Z.eqb _ RuneError && Nat.eqb _ 1); [destruct (o_allowinvalid (cO c))|].
    - exact S1.
    - exact (Sim_addErr S1 _).
    - exact S1.
  Qed.

  Lemma Sim_read {s sc g m H R inv} : Sim c s sc g m H R inv -> sp_w (pt s) > 0 ->
    Sim c (read c s) sc (mkSig (g_off g + sp_w (pt s)) (g_st g)) (land c R (g_off g + sp_w (pt s)) m) H R inv.
  Proof.
    intros S Hw. apply (Sim_land (g := mkSig _ _)).
    same_but S; [apply reach_adv; [apply S | exact Hw] | rewrite <- (S_off S); apply adv_off].
  Qed.

  Lemma mf_fold_app ts t : mf_fold (ts ++ [t]) = mf_step (mf_fold ts) t.
  Proof. unfold mf_fold. rewrite fold_left_app. reflexivity. Qed.

  (* failAt is "log the terminal attempt" *)
  Lemma Sim_failAt matched pos want s sc g m H R inv : Sim c s sc g m H R inv ->
    Sim c (failAt matched pos want s) sc g (log (RTerm pos want matched inv) m) H R inv.
  Proof.
    intros S. unfold failAt. rewrite (S_inv S).
    destruct (Bool.eqb matched inv) eqn:Em.
    2: { same_but S; rewrite Em; apply S. }
    assert (Hmf : mf_step (maxFailPos s, maxFailExpected s) (pos, want, inv)
                  = mf_fold (relevant_terms (u_log m) ++ [(pos, want, inv)]))
      by (rewrite mf_fold_app, (S_mf S); reflexivity).
    cbn [mf_step] in Hmf.
    destruct (offset pos <? offset (maxFailPos s)); [|destruct (offset (maxFailPos s) <? offset pos)];
      same_but S; rewrite Em, ?(S_inv S); exact Hmf.
  Qed.

  Lemma failAt_pt f p w s : pt (failAt f p w s) = pt s.
  Proof.
    unfold failAt. destruct (Bool.eqb _ _); [|reflexivity].
    destruct (_ <? _); [|destruct (_ <? _)]; reflexivity.
  Qed.

  Lemma Sim_I_read s : I c s -> I c (read c s).
  Proof. intros HI. exact (proj1 (Step_read c (Step_refl c s HI))). Qed.

  Lemma ctx_eqv_refl k x : ctx_eqv k x x.
  Proof. destruct k; cbn; auto. Qed.
End SimPrim.

Section SimTerm.
  Context {c : cfg} {s : pstate} {sc : scope} {g : rsig} {m : rmu} {H : handlers} {R : option rule} {inv : bool}
          (S : Sim c s sc g m H R inv).

  (* one rune with a predicate: what . and character classes share *)
  Lemma sim_one_rune b want (ok : rune -> bool) :
    simr c b sc g H R inv
      (if Nat.eqb (sp_w (pt s)) 0 then cls_fail want (pt s) s
       else if ok (sp_rn (pt s)) then cls_match c want (pt s) s else cls_fail want (pt s) s)
      (term_result c R inv want sc g m (step_rune c R (g_off g) m ok) m).
  Proof.
    unfold step_rune. rewrite (Sim_rune S).
    assert (Hfail : simr c b sc g H R inv (cls_fail want (pt s) s) (term_result c R inv want sc g m None m)).
    { apply Sr_fail_same. rewrite (Sim_pos S). apply Sim_failAt. exact S. }
    destruct (Nat.eqb_spec (sp_w (pt s)) 0) as [E|E]; [exact Hfail|]. destruct (ok (sp_rn (pt s))); [|exact Hfail].
    unfold cls_match.
    rewrite (Sim_slice S), failAt_off, read_off, (S_off S).
    apply Sr_ok_same; [|reflexivity]. rewrite (Sim_pos S).
    apply Sim_failAt, Sim_read; [exact S | apply Nat.neq_0_lt_0, E].
  Qed.

  Lemma sim_any b :
    simr c b sc g H R inv (parseAnyMatcher c s)
         (term_result c R inv b_dot sc g m (step_rune c R (g_off g) m (fun _ => true)) m).
  Proof.
    unfold parseAnyMatcher. rewrite (Sim_eof S). exact (sim_one_rune b b_dot (fun _ => true)).
  Qed.

  Lemma sim_cls b cv chars ranges classes ic cinv table : table_ok c chars ranges classes ic cinv table ->
    simr c b sc g H R inv (parseCharClassMatcher c cv chars ranges classes ic cinv table s)
         (term_result c R inv cv sc g m
            (step_rune c R (g_off g) m (class_decide (cU c) chars ranges classes ic cinv)) m).
  Proof.
    intros Ht. unfold parseCharClassMatcher.
    pose proof (sim_one_rune b cv (class_decide (cU c) chars ranges classes ic cinv)) as Hone.
    destruct (t_basiclatin (cT c) && (sp_rn (pt s) <? 128)%Z) eqn:Hbl; [|rewrite (Sim_eof S); exact Hone].
    (* the table is consulted without looking for the end of input, where the rune is U+FFFD > 127 *)
    apply andb_true_iff in Hbl as [Hbl Hlt]. apply Z.ltb_lt in Hlt.
    destruct Ht as [Ht|Ht]; [congruence|].
    rewrite <- Ht in Hone.
    2: { split; [|exact Hlt]. destruct (reach_ok _ _ (S_reach S)) as (_ & B & _).
         pose proof (decode_nonneg (sp_rest (pt s))) as Hd. rewrite <- B in Hd. exact Hd. }
    destruct (Nat.eqb_spec (sp_w (pt s)) 0) as [E|_].
    { rewrite (Sim_eof_rune S E) in Hlt. discriminate Hlt. }
    destruct (Bool.eqb (nth (Z.to_nat (sp_rn (pt s))) table false) cinv); exact Hone.
  Qed.

  Lemma sim_lit_loop b ic want : forall rs s1 o m1,
    Sim c s1 sc (mkSig o (g_st g)) m1 H R inv -> lit_ok c rs ic ->
    let '(res, mf) := lit_match c R ic rs o m1 in
    simr c b sc g H R inv (lit_loop c ic want (pt s) rs s1) (term_result c R inv want sc g m res mf).
  Proof.
    induction rs as [|w rs IH]; intros s1 o m1 S1 Hok; cbn [lit_match lit_loop].
    - rewrite (Sim_slice S), failAt_off, (S_off S1).
      apply Sr_ok_same; [|reflexivity]. rewrite (Sim_pos S). apply Sim_failAt. exact S1.
    - unfold step_rune. pose proof (Sim_rune S1) as Hrn. cbn [g_off] in Hrn. rewrite Hrn, (Sim_eof S1).
      assert (Hfail : simr c b sc g H R inv
                (Ok (VNil, false) (restore (pt s) (failAt false (sp_pos (pt s)) want s1)))
                (term_result c R inv want sc g m None m1)).
      { apply Sr_fail_same. rewrite (Sim_pos S).
        exact (Sim_restore (Sim_failAt c false _ want _ _ _ _ _ _ _ S1) _ g (S_reach S) (S_off S) eq_refl). }
      destruct (Nat.eqb_spec (sp_w (pt s1)) 0) as [E|E].
      + (* end of input: the rune is U+FFFD, which no literal contains unless the quirk is off *)
        destruct (Z.eqb _ w) eqn:Ew; [|exact Hfail].
        destruct (q_lit_eof (cQ c)) eqn:Hq; [|exact Hfail].
        exfalso. destruct Hok as [Hok|Hok]; [congruence|]. apply Hok. left.
        apply Z.eqb_eq in Ew. rewrite <- Ew, (Sim_eof_rune S1 E). reflexivity.
      + rewrite orb_true_r.
        destruct (Z.eqb _ w); [|exact Hfail].
        apply IH.
        * apply (Sim_read c S1), Nat.neq_0_lt_0, E.
        * destruct Hok as [Hok|Hok]; [left; exact Hok | right; intros Hin; apply Hok; right; exact Hin].
  Qed.

  Lemma sim_lit b lv ic want : lit_ok c lv ic ->
    simr c b sc g H R inv (parseLitMatcher c lv ic want s)
      (let '(res, mf) := lit_match c R ic lv (g_off g) m in term_result c R inv want sc g m res mf).
  Proof.
    intros Hok.
    pose proof (sim_lit_loop b ic want lv s (g_off g) m) as Hl.
    destruct (lit_match c R ic lv (g_off g) m) as [res mf]. apply Hl; [|exact Hok].
    destruct g; exact S.
  Qed.
End SimTerm.

Section SimCall.
  Variable c : cfg.

  (* what the caller of an expression learns from the simulation and from the invariant together *)
  Inductive called (closed : bool) (s : pstate) (sc : scope) (g : rsig) (H : handlers) (R : option rule) (inv : bool)
    : Res (val * bool) -> rres -> Prop :=
  | C_ok v s' g' sc' m' : Sim c s' sc' g' m' H R inv -> I c s' -> Frame s s' -> (closed = true -> sc' = sc) ->
      (has_state (cT c) = false -> g_st g' = g_st g) ->
      called closed s sc g H R inv (Ok (v, true) s') (ROk v g' sc' m')
  | C_fail s' sc' m' : Sim c s' sc' g m' H R inv -> I c s' -> Frame s s' -> (closed = true -> sc' = sc) ->
      called closed s sc g H R inv (Ok (VNil, false) s') (RFail m')
  | C_panic pv s' m' pos R' : SimP c s' m' pos R' -> called closed s sc g H R inv (Panic pv s') (RPanic pv m' pos R')
  | C_out : called closed s sc g H R inv OutOfFuel ROut.

  Lemma call_view closed s sc g H R inv ri rr :
    simr c closed sc g H R inv ri rr -> res_spec c s ri -> called closed s sc g H R inv ri rr.
  Proof.
    intros [v s' g' sc' m' S Hc Hs|s' sc' m' S Hc| |] Hw; [destruct Hw as (HI & _ & F & _)..| |];
      econstructor; eassumption.
  Qed.
End SimCall.

Lemma find_rule_In nm G r : find_rule nm G = Some r -> In r G.
Proof.
  revert r. apply (fold_left_inv (fun a => forall r, a = Some r -> In r G)); [|discriminate].
  intros a x Hx Ha r. destruct (bytes_eqb (r_name x) nm); [intros [= <-]; exact Hx | apply Ha].
Qed.

Section SimComp.
  Variable c : cfg.
  Let d := cData c.
  Variable wrap : expr -> M (val * bool).
  Variable ev : handlers -> option rule -> bool -> expr -> scope -> rsig -> rmu -> rres.
  Hypothesis Hwrap : wrap_spec c wrap.
  Hypothesis Hsim : simr_spec c wrap ev.
  Hypothesis Hst : state_ok c.
  Hypothesis Hmemo : o_memoize (cO c) = false.
  Hypothesis HG : G_wf c.
  Hypothesis Hstale : stale_ok c.

  Definition set_scope (sc : scope) (r : rres) : rres :=
    match r with ROk v g _ m => ROk v g sc m | x => x end.

  (* the specification does not read the incoming scope of a scope-closed expression, it only hands it back *)
  Hypothesis Hclosed_ref : forall H R inv e sc sc' g m, scope_closed e = true ->
    ev H R inv e sc' g m = set_scope sc' (ev H R inv e sc g m).

  Lemma sim_call e {s sc g m H R inv} :
    wf_e c e -> H_wf c H -> I c s -> Sim c s sc g m H R inv ->
    called c (scope_closed e) s sc g H R inv (wrap e s) (ev H R inv e sc g m).
  Proof. intros He HH HI S. exact (call_view c _ _ _ _ _ _ _ _ _ (Hsim _ _ _ _ _ _ _ _ He HH HI S) (Hwrap e s HI)). Qed.

  (* the "fresh scope" pattern: pushV; wrap e; popV *)
  Inductive scoped (sc : scope) (g : rsig) (H : handlers) (R : option rule) (inv : bool)
    : Res (val * bool) -> rres -> Prop :=
  | Sc_ok v s2 g' sc' m' : Sim c (popV s2) sc g' m' H R inv -> I c (popV s2) ->
      (has_state (cT c) = false -> g_st g' = g_st g) ->
      scoped sc g H R inv (Ok (v, true) s2) (ROk v g' sc' m')
  | Sc_fail s2 m' : Sim c (popV s2) sc g m' H R inv -> I c (popV s2) ->
      scoped sc g H R inv (Ok (VNil, false) s2) (RFail m')
  | Sc_panic pv s' m' pos R' : SimP c s' m' pos R' -> scoped sc g H R inv (Panic pv s') (RPanic pv m' pos R')
  | Sc_out : scoped sc g H R inv OutOfFuel ROut.

  Lemma sim_scoped e {s sc g m H R inv} :
    wf_e c e -> H_wf c H -> I c s -> Sim c s sc g m H R inv ->
    scoped sc g H R inv (wrap e (pushV s)) (ev H R inv e [] g m).
  Proof.
    intros He HH HI S. destruct (S_top S) as [vs Evs].
    assert (HI1 : I c (pushV s)) by now apply (I_same c s).
    destruct (sim_call e He HH HI1 (Sim_vstack S [] _))
      as [v s2 g' sc' m' S2 HI2 F _ Hs|s2 sc' m' S2 HI2 F _| |]; constructor; trivial.
    1, 3: exact (Sim_popV S2 sc vs (eq_trans (F_vtl _ _ F) Evs)).
    all: now apply (I_same c s2).
  Qed.

  (* cloneState: the saved store is the current one; only the pool log changes *)
  Inductive cloned (s : pstate) (sc : scope) (g : rsig) (m : rmu) (H : handlers) (R : option rule) (inv : bool)
    : store * pstate -> Prop :=
  | Cloned saved s1 : Sim c s1 sc g m H R inv -> I c s1 -> pt s1 = pt s -> (has_state (cT c) = true -> saved = g_st g) ->
      (forall id, block_ctx c id s1 = block_ctx c id s) -> cloned s sc g m H R inv (saved, s1).

  Lemma clone_sim {s sc g m H R inv} : I c s -> Sim c s sc g m H R inv -> cloned s sc g m H R inv (cloneState c s).
  Proof.
    intros HI S. unfold cloneState. destruct (has_state (cT c)) eqn:Hh; constructor; trivial.
    - same_but S.
    - now apply (I_same c s).
    - intros _. apply S.
    - congruence.
  Qed.

  Lemma sim_choice alts : wf_list c alts -> forall s sc g m H R inv,
    H_wf c H -> I c s -> Sim c s sc g m H R inv ->
    simr c true sc g H R inv (choice_loop c wrap alts s) (ralt ev H R inv alts sc g m).
  Proof.
    induction alts as [|a alts IH]; intros Hwf s sc g m H R inv HH HI S; cbn [choice_loop ralt].
    - apply Sr_fail_same. exact S.
    - destruct Hwf as [Ha Hwf]. unfold bind, modify.
      destruct (clone_sim HI S) as [saved s1 S1 HI1 _ Hsv _].
      destruct (sim_scoped a Ha HH HI1 S1) as [v s2 g' sc' m' S2 _ Hs|s2 m' S2 HI2| |];
          [ | | constructor; assumption..].
      + apply Sr_ok_same; [exact S2 | exact Hs].
      + apply IH; [exact Hwf | exact HH | apply StepEq_restoreState; exact HI2 |].
        exact (Sim_restoreState S2 saved g eq_refl Hsv (fun _ => eq_refl)).
  Qed.

  Lemma sim_seq_loop s0 sc0 g0 saved : reach d (pt s0) -> offset (sp_pos (pt s0)) = g_off g0 ->
    (has_state (cT c) = true -> saved = g_st g0) ->
    forall es, wf_list c es -> forall acc s sc g m H R inv,
      H_wf c H -> I c s -> Sim c s sc g m H R inv -> (has_state (cT c) = false -> g_st g = g_st g0) ->
      simr c false sc0 g0 H R inv (seq_loop c wrap (pt s0) saved es acc s) (rseq ev H R inv es acc sc g m).
  Proof.
    intros Hr Ho Hsv. induction es as [|e es IH]; intros Hwf acc s sc g m H R inv HH HI S Hg; cbn [seq_loop rseq].
    - apply Sr_ok; [exact S | discriminate | exact Hg].
    - destruct Hwf as [He Hwf]. unfold bind, modify.
      destruct (sim_call e He HH HI S) as [v s2 g' sc' m' S2 HI2 _ _ Hs|s2 sc' m' S2 _ _ _| |];
          [ | | constructor; assumption..].
      + apply IH; [exact Hwf | exact HH | exact HI2 | exact S2 |]. intros Hh. rewrite (Hs Hh). exact (Hg Hh).
      + apply Sr_fail with sc'; [|discriminate]. exact (Sim_rollback c _ _ g0 S2 Hr Ho Hsv Hg).
  Qed.

  (* nacc values were collected before the loop was entered: no more on return means that nothing matched, and then the
     position and store are those of the entry (what e+ needs in order to fail) *)
  Inductive reps (sc : scope) (g : rsig) (nacc : nat) (H : handlers) (R : option rule) (inv : bool)
    : Res (list val) -> rrepres -> Prop :=
  | Rp_done vs s' g' m' : Sim c s' sc g' m' H R inv -> nacc <= length vs -> (length vs = nacc -> g' = g) ->
      (has_state (cT c) = false -> g_st g' = g_st g) ->
      reps sc g nacc H R inv (Ok vs s') (RepDone vs g' m')
  | Rp_panic pv s' m' pos R' : SimP c s' m' pos R' -> reps sc g nacc H R inv (Panic pv s') (RepPanic pv m' pos R')
  | Rp_out : reps sc g nacc H R inv OutOfFuel RepOut.

  Lemma sim_rep e : wf_e c e -> forall n acc {s sc g m H R inv},
    H_wf c H -> I c s -> Sim c s sc g m H R inv ->
    reps sc g (length acc) H R inv (rep_loop wrap n e acc s) (rrep ev H R inv n e acc g m).
  Proof.
    intros He. induction n as [|n IH]; intros acc s sc g m H R inv HH HI S; cbn [rep_loop rrep]; [constructor|].
    unfold bind, modify.
    destruct (sim_scoped e He HH HI S) as [v s2 g' sc' m' S2 HI2 Hs|s2 m' S2 _| |];
      cbn [fst snd]; [ | | constructor; assumption..].
    - destruct (IH (v :: acc) _ sc g' m' H R inv HH HI2 S2) as [vs s' g'' m'' S3 Hl _ Hs3| |];
        constructor; trivial.
      + apply Nat.lt_le_incl, Hl.
      + intros E. rewrite E in Hl. destruct (Nat.nle_succ_diag_l _ Hl).
      + intros Hh. rewrite (Hs3 Hh). exact (Hs Hh).
    - constructor; trivial. rewrite rev_length. apply le_n.
  Qed.

  Lemma sim_throw_loop l H R inv : forall hs, H_wf c hs -> H_wf c H -> forall s sc g m,
    I c s -> Sim c s sc g m H R inv ->
    simr c false sc g H R inv (throw_loop c wrap l hs s) (rthrow ev H R inv l hs sc g m).
  Proof.
    induction hs as [|[ls rc] hs IH]; intros Hhs HH s sc g m HI S; cbn [throw_loop rthrow].
    - apply Sr_fail_same. exact S.
    - apply Forall_cons_iff in Hhs as [[Hrc Hok] Hhs].
      destruct (mem_bytes l ls); [|apply IH; assumption].
      unfold bind, modify, ret.
      destruct (q_recover_scope (cQ c)) eqn:Hq.
      + (* the recovery expression runs in the thrower's scope: it is scope-closed, and the specification might as
           well run it there *)
        destruct Hok as [Hok|Hok]; [congruence|].
        rewrite (Hclosed_ref H R inv rc sc [] g m Hok).
        destruct (sim_call rc Hrc HH HI S) as [v s2 g' sc' m' S2 _ _ Hc Hs|s2 sc' m' S2 HI2 _ Hc| |];
            [ | | constructor; assumption..]; rewrite (Hc Hok) in S2.
        * apply Sr_ok_same; [exact S2 | exact Hs].
        * apply IH; assumption.
      + destruct (sim_scoped rc Hrc HH HI S) as [v s2 g' sc' m' S2 _ Hs|s2 m' S2 HI2| |];
            [ | | constructor; assumption..].
        * apply Sr_ok_same; [exact S2 | exact Hs].
        * apply IH; assumption.
  Qed.

  Lemma st_free : has_state (cT c) = false -> env_state_free c.
  Proof. intros Hh. destruct Hst as [E|[_ F]]; [congruence | exact F]. Qed.

  Inductive ran {A} (sc : scope) (g : rsig) (H : handlers) (R : option rule) (inv : bool)
    : Res (A * option bytes) -> (A * option bytes * store * rmu) + (bytes * rmu) -> Prop :=
  | Ran_ret r err s' st' m' : Sim c s' sc (mkSig (g_off g) st') m' H R inv ->
      (has_state (cT c) = false -> st' = g_st g) ->
      ran sc g H R inv (Ok (r, err) s') (inl (r, err, st', m'))
  | Ran_panic pv s' m' : SimP c s' m' (pos_of d (g_off g)) R -> ran sc g H R inv (Panic pv s') (inr (pv, m')).

  (* running a block on contexts that the block cannot tell apart *)
  Lemma sim_run {A} k id (f : cid -> ctx -> cbout A) xr {s sc g m H R inv} :
    Sim c s sc g m H R inv -> ctx_eqv k (block_ctx c id s) xr -> f id (block_ctx c id s) = f id xr ->
    c_state xr = g_st g -> (has_state (cT c) = false -> out_st_same (f id xr) xr) ->
    ran sc g H R inv (run_code c k id f s) (run_block k id f xr m).
  Proof.
    intros S Hx Hf Hxs Hfree. unfold run_code, run_block. rewrite Hf.
    assert (Hs : forall st' gs',
               Sim c (set_gs gs' (set_st st' (set_trace (mkEvent k id (block_ctx c id s) :: trace s) s))) sc
                   (mkSig (g_off g) st') (with_gs gs' (log (RBlock k id xr) m)) H R inv).
    { same_but S; trivial. (* S_trace *) constructor; [repeat split; exact Hx | apply S]. }
    destruct (f id xr) as [r err st' gs'|pv st' gs']; constructor.
    - apply Hs.
    - intros Hh. rewrite <- Hxs. exact (Hfree Hh).
    - apply (Sim_to_P (Hs st' gs')).
  Qed.

  Lemma parseRuleWrap_plain n r s : r_leftrec r = false -> parseRuleWrap c wrap n r s = parseRule wrap r s.
  Proof.
    intros Hr. unfold parseRuleWrap. rewrite Hmemo, Hr.
    destruct (t_leftrec (cT c)); destruct (t_optimize (cT c)); reflexivity.
  Qed.

  Section SimKind.
    Context {s : pstate} {sc : scope} {g : rsig} {m : rmu} {H : handlers} {R : option rule} {inv : bool}
            (HH : H_wf c H) (HI : I c s) (S : Sim c s sc g m H R inv).

    (* the statement proved of each kind e of expression, p being its case of parseExpr *)
    Definition sim_kind (lf : nat) (p : M (val * bool)) (e : expr) : Prop :=
      wf_e c e -> simr c (scope_closed e) sc g H R inv (p s) (reval_body c ev lf H R inv e sc g m).

    Lemma sim_opt lf n e : sim_kind lf (parseZeroOrOneExpr wrap e) (EOpt n e).
    Proof.
      intros He. unfold parseZeroOrOneExpr, bind, modify. cbn [reval_body].
      destruct (sim_scoped e He HH HI S) as [v s2 g' sc' m' S2 _ Hs|s2 m' S2 _| |];
        [ | | constructor; assumption..].
      - apply Sr_ok_same; [exact S2 | exact Hs].
      - apply Sr_ok_same; [exact S2 | reflexivity].
    Qed.

    Lemma sim_lab lf n l e : sim_kind lf (parseLabeledExpr wrap l e) (ELab n l e).
    Proof.
      intros He. unfold parseLabeledExpr, bind, modify. cbn [reval_body].
      destruct (sim_scoped e He HH HI S) as [v s2 g' sc' m' S2 _ Hs|s2 m' S2 _| |];
          [ | | constructor; assumption..].
      - destruct l as [|x l]; (apply Sr_ok; [|discriminate|exact Hs]); [exact S2|].
        destruct (S_top S2) as [vs Evs]. unfold bind_label. rewrite Evs. apply (Sim_vstack S2).
      - apply Sr_fail_same. exact S2.
    Qed.

    Lemma sim_and lf n e : sim_kind lf (parseAndExpr c wrap e) (EAnd n e).
    Proof.
      intros He. unfold parseAndExpr, bind, modify. cbn [reval_body].
      destruct (clone_sim HI S) as [saved s1 S1 HI1 Hpt Hsv _]. rewrite <- Hpt.
      destruct (sim_scoped e He HH HI1 S1) as [v s2 g' sc' m' S2 _ Hs|s2 m' S2 _| |];
        [ | | constructor; assumption..].
      - apply Sr_ok_same; [|reflexivity]. exact (Sim_rollback c _ _ g S2 (S_reach S1) (S_off S1) Hsv Hs).
      - apply Sr_fail_same. exact (Sim_rollback c _ _ g S2 (S_reach S1) (S_off S1) Hsv (fun _ => eq_refl)).
    Qed.

    Lemma sim_not lf n e : sim_kind lf (parseNotExpr c wrap e) (ENot n e).
    Proof.
      intros He. unfold parseNotExpr, bind, modify. cbn [reval_body].
      destruct (clone_sim HI S) as [saved s1 S1 HI1 Hpt Hsv _]. rewrite <- Hpt.
      (* the flip commutes with pushV and popV *)
      set (s1' := set_maxFailInvert (negb (maxFailInvert s1)) s1).
      change (set_maxFailInvert (negb (maxFailInvert (pushV s1))) (pushV s1)) with (pushV s1').
      assert (HI1' : I c s1') by now apply (I_same c s1).
      destruct (sim_scoped e He HH HI1' (Sim_flip S1))
        as [v s2 g' sc' m' S2 _ Hs|s2 m' S2 _| |];
        [ | | constructor; assumption..].
      all: pose proof (Sim_flip S2) as S3; rewrite Bool.negb_involutive in S3.
      - apply Sr_fail_same. exact (Sim_rollback c _ _ g S3 (S_reach S1) (S_off S1) Hsv Hs).
      - apply Sr_ok_same; [|reflexivity]. exact (Sim_rollback c _ _ g S3 (S_reach S1) (S_off S1) Hsv (fun _ => eq_refl)).
    Qed.

    Lemma sim_seq lf n es : sim_kind lf (parseSeqExpr c wrap es) (ESeq n es).
    Proof.
      intros Hwf. unfold parseSeqExpr, bind.
      destruct (clone_sim HI S) as [saved s1 S1 HI1 Hpt Hsv _]. rewrite <- Hpt.
      apply (sim_seq_loop s1 sc g saved); trivial; apply S1.
    Qed.

    Lemma sim_star n0 n e : sim_kind n (parseZeroOrMoreExpr wrap n e) (EStar n0 e).
    Proof.
      intros He. unfold parseZeroOrMoreExpr, bind. cbn [reval_body].
      destruct (sim_rep e He n [] HH HI S) as [vs s' g' m' S2 _ _ Hs| |];
        constructor; trivial.
    Qed.

    Lemma sim_plus n0 n e : sim_kind n (parseOneOrMoreExpr wrap n e) (EPlus n0 e).
    Proof.
      intros He. unfold parseOneOrMoreExpr, bind. cbn [reval_body].
      destruct (sim_rep e He n [] HH HI S) as [vs s' g' m' S2 _ Hz Hs| |];
        [|constructor; assumption..].
      destruct vs as [|v0 vs].
      - apply Sr_fail_same. rewrite <- (Hz eq_refl). exact S2.
      - apply Sr_ok_same; [exact S2 | exact Hs].
    Qed.

    Lemma sim_rec lf n e rc ls : sim_kind lf (parseRecoveryExpr wrap e rc ls) (ERec n e rc ls).
    Proof.
      intros (He & Hrc & Hok).
      unfold parseRecoveryExpr, bind, modify, pushRecovery, popRecovery. cbn [reval_body].
      rewrite (S_rcv S).
      assert (HH1 : H_wf c ((ls, rc) :: H)) by (constructor; [split; assumption | exact HH]).
      assert (HI1 : I c (set_rcvstack ((ls, rc) :: H) s)) by now apply (I_same c s).
      destruct (sim_call e He HH1 HI1 (Sim_rcv S _)) as [v s2 g' sc' m' S2 _ _ _ Hs|s2 sc' m' S2 _ _ _| |];
        [ | | constructor; assumption..]; rewrite (S_rcv S2).
      - apply Sr_ok; [|discriminate|exact Hs]. exact (Sim_rcv S2 H).
      - apply Sr_fail with sc'; [|discriminate]. exact (Sim_rcv S2 H).
    Qed.

    Lemma sim_throw lf n l : sim_kind lf (parseThrowExpr c wrap l) (EThrow n l).
    Proof.
      intros _. unfold parseThrowExpr. rewrite (S_rcv S).
      apply sim_throw_loop; assumption.
    Qed.

    Lemma sim_act lf n id e : sim_kind lf (parseActionExpr c wrap id e) (EAct n id e).
    Proof.
      intros He. unfold parseActionExpr, bind, modify. cbn [reval_body]. unrd.
      destruct (sim_call e He HH HI S) as [v s2 g' sc' m' S2 HI2 _ _ Hs|s2 sc' m' S2 _ _ _| |];
        [ | apply Sr_fail with sc'; [exact S2 | discriminate] | constructor; assumption..].
      set (s3 := set_cur_text (sliceFrom (pt s) s2) (set_cur_pos (sp_pos (pt s)) s2)).
      assert (HI3 : I c s3) by now apply (I_same c s2).
      destruct (clone_sim HI3 (Sim_cur S2 _ _)) as [saved s4 S4 _ _ Hsv Hctx].
      set (xr := block_ctx_ref c id (slice c (g_off g) (g_off g')) (pos_of (cData c) (g_off g)) sc' g' m').
      assert (Hx : block_ctx c id s4 = xr).
      { rewrite Hctx. unfold s3.
        rewrite (Sim_ctx (Sim_cur S2 _ _)), (Sim_slice S), (S_off S2), (Sim_pos S). reflexivity. }
      destruct (sim_run KAct id (ce_act (cE c)) xr S4) as [r err s5 st' m'' S5 Hst5|].
      - rewrite Hx. reflexivity.
      - rewrite Hx. reflexivity.
      - reflexivity.
      - intros Hh. apply (st_free Hh).
      - apply Sr_ok; [|discriminate|exact Hs].
        refine (Sim_restoreState (g := mkSig (g_off g') st') _ saved g' eq_refl Hsv Hst5).
        destruct err; [rewrite (Sim_pos S); apply Sim_addErrAt|]; exact S5.
      - constructor. assumption.
    Qed.

    Definition fresh_state : pstate :=
      if q_stale_ctx (cQ c) then s else set_cur_text [] (set_cur_pos (sp_pos (pt s)) s).

    Lemma Sim_fresh : Sim c fresh_state sc g m H R inv.
    Proof. unfold fresh_state. destruct (q_stale_ctx (cQ c)); [exact S | apply (Sim_cur S)]. Qed.

    Lemma I_fresh : I c fresh_state.
    Proof. unfold fresh_state. destruct (q_stale_ctx (cQ c)); [exact HI | now apply (I_same c s)]. Qed.

    (* under the stale-context quirk a predicate or state block sees the text and position of the last action:
       the specification's context differs in those two fields, which such blocks are assumed not to read *)
    Lemma fresh_rel k id : k <> KAct ->
      let xi := block_ctx c id fresh_state in
      let xr := block_ctx_ref c id [] (pos_of d (g_off g)) sc g m in
      ctx_eqv k xi xr /\ ce_pred (cE c) id xi = ce_pred (cE c) id xr /\ ce_state (cE c) id xi = ce_state (cE c) id xr.
    Proof.
      intros Hk. rewrite (Sim_ctx Sim_fresh).
      assert (He : ctx_eqv KAnd (block_ctx_ref c id (cur_text fresh_state) (cur_pos fresh_state) sc g m)
                     (block_ctx_ref c id [] (pos_of d (g_off g)) sc g m)) by (cbn; auto).
      split; [destruct k; [contradiction|exact He..]|].
      destruct Hstale as [Hq|[Fp Fs]].
      - unfold fresh_state. rewrite Hq, (Sim_pos S). split; reflexivity.
      - split; [apply Fp | apply Fs]; exact He.
    Qed.

    Lemma sim_pred b k neg id : k <> KAct ->
      simr c b sc g H R inv (parseCodePred c k neg id s)
        (match run_block k id (ce_pred (cE c)) (block_ctx_ref c id [] (pos_of d (g_off g)) sc g m) m with
         | inl (ok, err, _, m') =>
             let m'' := log_err err (pos_of d (g_off g)) R m' in
             if neg then (if ok then RFail m'' else ROk VNil g sc m'') else (if ok then ROk VNil g sc m'' else RFail m'')
         | inr (pv, m') => RPanic pv m' (pos_of d (g_off g)) R
         end).
    Proof.
      intros Hk. unfold parseCodePred, fresh_ctx, bind, modify. fold fresh_state.
      destruct (clone_sim I_fresh Sim_fresh) as [saved s1 S1 _ _ Hsv Hctx].
      destruct (fresh_rel k id Hk) as (Hx & Hp & _). rewrite <- Hctx in Hx, Hp.
      destruct (sim_run k id (ce_pred (cE c)) _ S1 Hx Hp eq_refl
                  (fun Hh => proj1 (proj2 (st_free Hh)) id _))
        as [ok err s3 st' m' S3 Hst3|]; [|constructor; assumption].
      assert (S5 : Sim c (restoreState c saved (match err with Some msg => addErr c msg s3 | None => s3 end)) sc g
                     (log_err err (pos_of d (g_off g)) R m') H R inv).
      { exact (Sim_restoreState (Sim_log_err S3 err) saved g eq_refl Hsv Hst3). }
      destruct neg, ok; [apply Sr_fail_same | apply Sr_ok_same | apply Sr_ok_same | apply Sr_fail_same]; trivial.
    Qed.

    Lemma sim_andc lf n id : sim_kind lf (parseCodePred c KAnd false id) (EAndC n id).
    Proof. intros _. apply (sim_pred false KAnd false). discriminate. Qed.

    Lemma sim_notc lf n id : sim_kind lf (parseCodePred c KNot true id) (ENotC n id).
    Proof. intros _. apply (sim_pred false KNot true). discriminate. Qed.

    Lemma sim_stc lf n id : sim_kind lf (parseStateCodeExpr c id) (EStC n id).
    Proof.
      intros _. unfold parseStateCodeExpr, fresh_ctx, bind, modify. fold fresh_state.
      cbn [reval_body]. unrd. fold d.
      destruct (fresh_rel KState id (fun E => ltac:(discriminate E))) as (Hx & _ & Hs).
      destruct (sim_run KState id (ce_state (cE c)) _ Sim_fresh Hx Hs eq_refl
                  (fun Hh => proj2 (proj2 (st_free Hh)) id _))
        as [u err s3 st' m' S3 Hst3|]; [|constructor; assumption].
      apply Sr_ok_same; [exact (Sim_log_err S3 err) | exact Hst3].
    Qed.

    Lemma sim_rule r : wf_e c (r_expr r) ->
      simr c true sc g H R inv (parseRule wrap r s)
        (match ev H (Some r) inv (r_expr r) [] g m with ROk v g' _ m' => ROk v g' sc m' | other => other end).
    Proof.
      intros He. unfold parseRule, bind, modify.
      set (s0 := set_rstack (r :: rstack s) s).
      assert (HI0 : I c (pushV s0)) by now apply (I_same c s).
      destruct (S_top S) as [vs Evs].
      (* popping the scope and the rule restores what Sim says of s *)
      assert (Hpop : forall s2 sc2 g2 m2, Sim c s2 sc2 g2 m2 H (Some r) inv -> Frame (pushV s0) s2 ->
                Sim c (set_rstack (tl (rstack s2)) (popV s2)) sc g2 m2 H R inv).
      { intros s2 sc2 g2 m2 S2 F. rewrite (F_rstack _ _ F), <- (S_rule S).
        exact (Sim_rule (Sim_popV S2 sc vs (eq_trans (F_vtl _ _ F) Evs)) (rstack s)). }
      destruct (sim_call (r_expr r) (s := pushV s0) (R := Some r) He HH HI0 (Sim_vstack (Sim_rule S _) [] _))
        as [v s2 g' sc' m' S2 _ F _ Hs|s2 sc' m' S2 _ F _| |]; [ | | constructor; assumption..].
      - apply Sr_ok_same; [exact (Hpop _ _ _ _ S2 F) | exact Hs].
      - apply Sr_fail_same. exact (Hpop _ _ _ _ S2 F).
    Qed.

    Lemma sim_ref lf n0 n nm : sim_kind lf (parseRuleRefExpr c wrap n nm) (ERef n0 nm).
    Proof.
      intros _. unfold parseRuleRefExpr. cbn [reval_body]. unrd.
      destruct nm as [|x nm]; [constructor; apply (Sim_to_P S)|].
      destruct (find_rule (x :: nm) (cG c)) as [r|] eqn:Hf.
      - destruct (proj1 (Forall_forall _ _) HG r (find_rule_In _ _ _ Hf)) as [Hwf Hlr].
        rewrite (parseRuleWrap_plain _ _ _ Hlr). apply sim_rule. exact Hwf.
      - apply Sr_fail_same, (Sim_addErr S).
    Qed.
  End SimKind.
End SimComp.
