(* The choice-in-choice law for Ref itself, at any fuel at which the nested form is defined: the law of
   OptLaws.v up to [meq], for the evaluator [reval c (S f)], which respects [meq] and treats a node,
   up to [meq], as its body says (CntInsens.reval_node). *)
From PV Require Import Lib.Base Syntax.RGrammar Model.Runtime Spec.Ref Proofs.RefMono Proofs.OptLaws Proofs.CntInsens.

Section ChoiceLaw.
  Variable c : rdata.
  Hypothesis Hbud : o_maxexpr (rO c) = 0%N.

  Lemma rsim_trans a b d : rsim a b -> rsim b d -> rsim a d.
  Proof.
    intros X Y. destruct a, b; cbn [rsim] in X; try contradiction; destruct d; cbn [rsim] in Y |- *; try contradiction;
      unfold meq in *; intuition congruence.
  Qed.

  Lemma rsim_out_l a b : rsim a b -> a <> ROut -> b <> ROut.
  Proof. destruct a, b; try contradiction; congruence. Qed.

  Theorem ref_choice_in_choice_flattens f H R inv n n' a b d sc g m :
    reval c (S (S f)) H R inv (EAlt n (a ++ EAlt n' b :: d)) sc g m <> ROut ->
    rsim (reval c (S (S f)) H R inv (EAlt n (a ++ EAlt n' b :: d)) sc g m)
         (reval c (S (S f)) H R inv (EAlt n (a ++ b ++ d)) sc g m).
  Proof.
    rewrite !(reval_S_nobudget c Hbud (S f)).
    apply (rres_rel_strict True), choice_flattens_upto; [| |apply meq_refl].
    - apply (reval_fuel_cnt c Hbud). left. reflexivity.
    - apply (reval_node c Hbud f H R inv (EAlt n' b)).
  Qed.
End ChoiceLaw.
