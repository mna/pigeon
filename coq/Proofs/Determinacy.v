(* Why a result may be remembered: in the specification, with code blocks that look only at
   text, pos, their labels and the state store (not at the global store), and without an
   expression budget, the outcome of evaluating an expression - success or failure, value, end
   position and state, label scope, or the panic - does not depend on what was evaluated before
   (log, counter, global store): at given fuel it is a function of handlers, rule, predicate
   polarity, expression, scope and start position and state.  This is the soundness principle
   behind Memoize (C06).  It is [reval_rel] for the relation that holds of any two records. *)
From PV Require Import Lib.Base Syntax.RGrammar Syntax.Code Model.PState Model.Runtime Spec.Ref Proofs.RefMono.

Section Determinacy.
  Variable c : rdata.
  Hypothesis Hbud : o_maxexpr (rO c) = 0%N.

  (* contexts that differ at most in the global store *)
  Definition ctx_eq (x y : ctx) : Prop :=
    c_text x = c_text y /\ c_pos x = c_pos y /\ c_args x = c_args y /\ c_state x = c_state y.

  Definition out_eq {A} (a b : cbout A) : Prop :=
    match a, b with
    | CbRet r e st _, CbRet r' e' st' _ => r = r' /\ e = e' /\ st = st'
    | CbPanic pv st _, CbPanic pv' st' _ => pv = pv' /\ st = st'
    | _, _ => False
    end.

  Hypothesis Hact : forall id x y, ctx_eq x y -> out_eq (ce_act (rE c) id x) (ce_act (rE c) id y).
  Hypothesis Hpred : forall id x y, ctx_eq x y -> out_eq (ce_pred (rE c) id x) (ce_pred (rE c) id y).
  Hypothesis Hstate : forall id x y, ctx_eq x y -> out_eq (ce_state (rE c) id x) (ce_state (rE c) id y).

  Definition res_eq (a b : rres) : Prop :=
    match a, b with
    | RFail _, RFail _ => True
    | ROk v g sc _, ROk v' g' sc' _ => v = v' /\ g = g' /\ sc = sc'
    | RPanic pv _ pos R, RPanic pv' _ pos' R' => pv = pv' /\ pos = pos' /\ R = R'
    | ROut, ROut => True
    | _, _ => False
    end.

  Lemma res_eq_rel a b : res_eq a b <-> rres_rel False eq (fun _ _ => True) a b.
  Proof. destruct a, b; cbn; try reflexivity; tauto. Qed.

  Definition ev_ok (ev : handlers -> option rule -> bool -> expr -> scope -> rsig -> rmu -> rres) : Prop :=
    forall H R inv e sc g m1 m2, res_eq (ev H R inv e sc g m1) (ev H R inv e sc g m2).

  Lemma ev_ok_rel ev : ev_ok ev -> ev_rel False (fun _ _ => True) ev ev.
  Proof. intros Hev H R inv e sc g m1 m2 _. apply res_eq_rel, Hev. Qed.

  Lemma rseq_eq ev : ev_ok ev -> forall H R inv es acc sc g m1 m2,
    res_eq (rseq ev H R inv es acc sc g m1) (rseq ev H R inv es acc sc g m2).
  Proof.
    intros Hev H R inv es acc sc g m1 m2.
    apply res_eq_rel, (rseq_rel False _ ev ev (ev_ok_rel ev Hev)); [congruence | reflexivity | exact I].
  Qed.

  Lemma blocks_ignore_gs {A} (f : cid -> ctx -> cbout A) :
    (forall id x y, ctx_eq x y -> out_eq (f id x) (f id y)) -> rblk_ok c (fun _ _ => True) f.
  Proof.
    intros Hf k id text pos sc g m1 m2 _. unfold run_block.
    pose proof (Hf id (block_ctx_ref c id text pos sc g m1) (block_ctx_ref c id text pos sc g m2)
                  (conj eq_refl (conj eq_refl (conj eq_refl eq_refl)))) as X.
    destruct (f id _), (f id _); try contradiction; cbn [rblk_rel].
    - destruct X as (-> & -> & ->). auto.
    - destruct X as (-> & _). auto.
  Qed.

  Theorem outcome_is_history_independent fuel : ev_ok (reval c fuel).
  Proof.
    intros H R inv e sc g m1 m2. apply res_eq_rel.
    apply (reval_rel c False (fun _ _ => True)); auto using blocks_ignore_gs.
    - unfold over_budget. rewrite Hbud. reflexivity.
    - left. reflexivity.
  Qed.
End Determinacy.
