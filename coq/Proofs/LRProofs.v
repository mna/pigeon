(* The seed-growing loop of a left-recursive leader (parseRuleRecursiveLeader): what the last,
   non-extending attempt did to the error list and to the state store is not retained. *)
From PV Require Import Lib.Base Syntax.RGrammar Model.PState Model.Runtime.

Section LR.
  Variable c : cfg.
  Variable wrap : expr -> M (val * bool).

  (* the state the attempt starts from: the clone is taken, the current result is planted as the seed *)
  Definition attempt_start (r : rule) (sm : savepoint) (last : rtuple) (s : pstate) : pstate :=
    setMemoized sm (KRule (r_name r)) last (snd (cloneState c s)).

  Definition not_extending (depth : nat) (last : rtuple) (b : bool) (s2 : pstate) : Prop :=
    b = false \/ (offset (sp_pos (pt s2)) <= offset (sp_pos (rt_end last)) /\ depth <> 0).

  Lemma last_attempt_not_retained n r sm depth last lastErrs s v b s2 :
    parseRule wrap r (attempt_start r sm last s) = Ok (v, b) s2 ->
    not_extending depth last b s2 ->
    exists s3,
      leader_loop c wrap (S n) r sm depth last lastErrs s = Ok last s3 /\
      errs s3 = lastErrs /\
      (has_state (cT c) = true -> st s3 = st s) /\
      gs s3 = gs s2 /\ trace s3 = trace s2.
  Proof.
    intros Hp Hne. unfold attempt_start in Hp.
    cbn [leader_loop]. unfold bind, modify.
    destruct (cloneState c s) as [saved s1] eqn:Ec. cbn [snd] in Hp.
    rewrite Hp. cbn [snd].
    assert (Hcond : negb b || (offset (sp_pos (pt s2)) <=? offset (sp_pos (rt_end last))) && negb (Nat.eqb depth 0) = true).
    { destruct Hne as [->|[Hle%Nat.leb_le Hd%Nat.eqb_neq]]; [reflexivity|]. rewrite Hle, Hd. apply orb_true_r. }
    rewrite Hcond.
    eexists. split; [reflexivity|]. unfold cloneState in Ec. unfold restoreState.
    destruct (has_state (cT c)); inversion Ec; repeat split; discriminate.
  Qed.
End LR.
