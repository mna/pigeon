(* Closing the refinement: one step of parseExpr against one step of Ref.reval, and the induction on fuel. *)
From PV Require Import Lib.Base Syntax.RGrammar Model.PState Spec.Pos Model.Runtime Spec.Ref Proofs.Inv
  Proofs.InvStep Proofs.RefMono Proofs.Sim Proofs.SimStep.

Section Final.
  Variable c : cfg.
  Let d := cData c.
  Hypothesis Hst : state_ok c.
  Hypothesis Hmemo : o_memoize (cO c) = false.
  Hypothesis HG : G_wf c.
  Hypothesis Hstale : stale_ok c.
  (* a grammar without left-recursive rules is built with the LeftRecursion template off; with it on, every expression
     consults the rule stack (memo_active) and panics on an empty one, and the statement leaves the stack arbitrary *)
  Hypothesis Hnolr : t_leftrec (cT c) = false.

  Lemma reval_closed fuel H R inv e sc sc' g m : scope_closed e = true ->
    reval c fuel H R inv e sc' g m = set_scope sc' (reval c fuel H R inv e sc g m).
  Proof.
    intros Hc. destruct fuel as [|f]; [reflexivity|]. rewrite !reval_S.
    destruct (over_budget c _); [reflexivity|]. generalize (tick m). intros m0.
    destruct e; try discriminate; cbn [reval_body].
    - destruct (lit_match c R ic val (g_off g) m0) as [[[o' m']|] mf]; reflexivity.
    - destruct (step_rune c R (g_off g) m0 _) as [[o' m']|]; reflexivity.
    - destruct (step_rune c R (g_off g) m0 _) as [[o' m']|]; reflexivity.
    - revert m0. induction es as [|x es IH]; intros m0; cbn [ralt]; [reflexivity|].
      destruct (reval c f H R inv x [] g m0); try reflexivity. apply IH. reflexivity.
    - destruct (rrep _ _ _ _ _ _ _ _ _) as [vs g' m'|pv m' pos R'|]; reflexivity.
    - destruct (rrep _ _ _ _ _ _ _ _ _) as [[|v vs] g' m'|pv m' pos R'|]; reflexivity.
    - destruct (reval c f H R inv e [] g m0); reflexivity.
    - destruct (reval c f H R inv e [] g m0); reflexivity.
    - destruct (reval c f H R (negb inv) e [] g m0); reflexivity.
    - destruct r as [|x r]; [reflexivity|]. destruct (find_rule (x :: r) (rG c)); [|reflexivity].
      destruct (reval c f H (Some _) inv _ [] g m0); reflexivity.
  Qed.

  Section OneStep.
    Variable wrap : expr -> M (val * bool).
    Variable ev : handlers -> option rule -> bool -> expr -> scope -> rsig -> rmu -> rres.
    Hypothesis Hwrap : wrap_spec c wrap.
    Hypothesis Hsim : simr_spec c wrap ev.
    Hypothesis Hclosed_ref : forall H R inv e sc sc' g m, scope_closed e = true ->
      ev H R inv e sc' g m = set_scope sc' (ev H R inv e sc g m).

    (* on the right, reval at fuel S n as RefMono.reval_S unfolds it, over any evaluator ev of the sub-expressions *)
    Lemma sim_parseExpr n e s sc g m H R inv :
      wf_e c e -> H_wf c H -> I c s -> Sim c s sc g m H R inv ->
      simr c (scope_closed e) sc g H R inv (parseExpr c wrap n e s)
        (if over_budget c (u_cnt (tick m)) then RPanic msg_max_expr (tick m) (pos_of d (g_off g)) R
         else reval_body c ev n H R inv e sc g (tick m)).
    Proof.
      intros He HH HI S. unfold parseExpr, over_budget, tick. unrd. cbn [u_cnt exprCnt set_exprCnt].
      rewrite <- (S_cnt S).
      pose proof (Sim_cnt S (exprCnt s + 1)) as S1.
      destruct (negb (N.eqb (o_maxexpr (cO c)) 0) && N.ltb (o_maxexpr (cO c)) (exprCnt s + 1)) eqn:Hb.
      { constructor. apply (Sim_to_P S1). }
      pose proof (tick_spec c s HI) as HI1. cbn [exprCnt set_exprCnt] in HI1. rewrite Hb in HI1.
      apply proj1 in HI1.
      destruct e;
        [ apply sim_lit | apply sim_cls | apply sim_any | apply sim_seq | apply sim_choice | apply sim_star
        | apply sim_plus | apply sim_opt | apply sim_and | apply sim_not | apply sim_lab | apply sim_act
        | apply sim_andc | apply sim_notc | rewrite (He : has_state (cT c) = true); apply sim_stc | apply sim_ref
        | apply sim_rec | apply sim_throw ]; trivial.
    Qed.
  End OneStep.

  Theorem parse_sim : forall fuel, simr_spec c (parseExprWrap c fuel) (reval c fuel).
  Proof.
    induction fuel as [|f IH]; intros e s sc g m H R inv He HH HI S; [constructor|].
    cbn [parseExprWrap]. unfold parseExprWrapBody, memo_active. rewrite Hnolr, Hmemo.
    destruct (t_optimize (cT c)); apply (sim_parseExpr (parseExprWrap c f) (reval c f) (parseExprWrap_inv c f) IH);
      trivial; apply reval_closed.
  Qed.

  Theorem impl_refines_ref : forall fuel, sim_spec c (parseExprWrap c fuel) (reval c fuel).
  Proof.
    intros fuel e s sc g m H R inv He HH HI S. eapply simr_res, parse_sim; eassumption.
  Qed.
End Final.
