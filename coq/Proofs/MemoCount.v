(* Memoize bounds the work (second sentence of C06), the part that holds of every grammar:
   with Memoize(true), a standard (not -optimize-parser) parser without left-recursion support
   stores one result per evaluated expression and evaluates nothing on a hit, so the number of
   evaluated expressions equals the number of results stored in the memo table.  When no
   (expression, offset) pair is stored twice - which is what the absence of left recursion buys,
   see C07 - the count is bounded by (number of expressions) x (input length + 1). *)
From PV Require Import Lib.Base Syntax.RGrammar Syntax.Code Model.PState Model.Runtime Proofs.Inv Proofs.InvStep.
Local Open Scope N_scope.

Definition is_kexpr (en : nat * mkey * rtuple) : bool :=
  match snd (fst en) with KExpr _ => true | KRule _ => false end.

(* the (offset, expression) pairs with a stored result, one per setMemoized *)
Definition expr_keys (m : list (nat * mkey * rtuple)) : list (nat * nid) :=
  flat_map (fun en => match snd (fst en) with KExpr n => [(fst (fst en), n)] | KRule _ => [] end) m.

Definition stored (m : list (nat * mkey * rtuple)) : N := N.of_nat (length (expr_keys m)).

Definition Bal (s s' : pstate) : Prop := exprCnt s' + stored (memo s) = exprCnt s + stored (memo s').

Lemma Bal_refl s : Bal s s. Proof. reflexivity. Qed.
Lemma Bal_trans a b d : Bal a b -> Bal b d -> Bal a d. Proof. unfold Bal. lia. Qed.

Lemma stored_cons o n r m : stored ((o, KExpr n, r) :: m) = N.succ (stored m).
Proof. apply Nat2N.inj_succ. Qed.

(* the one step that is not neutral: an evaluation is counted when it starts, its result is stored when it ends *)
Lemma Bal_eval s s' p n r : Bal (set_exprCnt (exprCnt s + 1) s) s' -> Bal s (setMemoized p (KExpr n) r s').
Proof. unfold Bal. cbn [setMemoized memo exprCnt set_memo set_exprCnt]. rewrite stored_cons. lia. Qed.

Definition mc_pres (f : pstate -> pstate) : Prop := forall s, memo (f s) = memo s /\ exprCnt (f s) = exprCnt s.

Lemma Bal_step f s s' : mc_pres f -> Bal s s' -> Bal s (f s').
Proof. unfold Bal. intros Hf. destruct (Hf s') as [-> ->]. auto. Qed.

Lemma mc_pres_comp f g : mc_pres f -> mc_pres g -> mc_pres (fun s => f (g s)).
Proof. intros Hf Hg s. destruct (Hf (g s)), (Hg s). split; congruence. Qed.

Lemma mc_bind_label l v : mc_pres (bind_label l v).
Proof. intros s. unfold bind_label. destruct (vstack s); split; reflexivity. Qed.

Lemma mc_restore p : mc_pres (restore p).
Proof. intros s. unfold restore. destruct (Nat.eqb _ _); split; reflexivity. Qed.

Lemma mc_restoreState c x : mc_pres (restoreState c x).
Proof. unfold restoreState. destruct (has_state _); split; reflexivity. Qed.

Lemma mc_failAt f p w : mc_pres (failAt f p w).
Proof.
  intros s. unfold failAt. destruct (Bool.eqb _ _); [destruct (_ <? _)%nat; [|destruct (_ <? _)%nat]|]; split; reflexivity.
Qed.

Lemma mc_read c : mc_pres (read c).
Proof. intros s. unfold read. destruct (_ && _); [destruct (o_allowinvalid _)|]; split; reflexivity. Qed.

Definition balanced {A} (m : M A) : Prop := forall s a s', m s = Ok a s' -> Bal s s'.

Lemma get_bal {A} (g : pstate -> A) : balanced (fun s => Ok (g s) s).
Proof. intros s a s' [= _ <-]. apply Bal_refl. Qed.

Lemma modify_bal f : mc_pres f -> balanced (modify f).
Proof. intros Hf s a s' [= _ <-]. apply Bal_step; [exact Hf | apply Bal_refl]. Qed.

Lemma bind_bal {A B} (m : M A) (k : A -> M B) : balanced m -> (forall a, balanced (k a)) -> balanced (bind m k).
Proof.
  intros Hm Hk s b s'. unfold bind. destruct (m s) as [a s1|pv s1|] eqn:E; [|discriminate..].
  intros H. exact (Bal_trans _ _ _ (Hm _ _ _ E) (Hk _ _ _ _ H)).
Qed.

Lemma clone_bal c : balanced (fun s => let '(x, s') := cloneState c s in Ok x s').
Proof. intros s a s'. unfold cloneState. destruct (has_state _); intros [= _ <-]; reflexivity. Qed.

Lemma run_code_bal {R} c k id (f : cid -> ctx -> cbout R) : balanced (run_code c k id f).
Proof. intros s a s'. unfold run_code. destruct (f id _); intros [= _ <-]. reflexivity. Qed.

(* [auto with bal] takes a computation apart along the monad's combinators: bind_bal goes into both halves of a bind,
   a [modify f] is left with [mc_pres f], and a [match] on a value that is not read from the state (a returned pair or
   list, a flag of the configuration) is split into its branches.  The ?x of those patterns cannot mention the bound
   state, so a test that reads the state is not touched: the computations that make one (the terminals, throw, the
   two memo wrappers) are opened by hand in the section below.  Depth 12 is what the longest chain of binds,
   parseNotExpr's, needs.  What auto cannot do is the induction a loop needs. *)
Create HintDb bal.
#[local] Hint Resolve Bal_refl Bal_step mc_bind_label mc_restore mc_restoreState mc_failAt mc_read
  get_bal modify_bal bind_bal clone_bal run_code_bal : bal.
(* f writes other fields only: both equations hold by computation *)
#[local] Hint Extern 2 (mc_pres _) => split; reflexivity : bal.
#[local] Hint Extern 1 (mc_pres (fun s => match ?x with _ => _ end)) => destruct x : bal.
#[local] Hint Extern 1 (balanced (match ?x with _ => _ end)) => destruct x : bal.

Section Step.
  Variable c : cfg.
  Hypothesis Hmemo : o_memoize (cO c) = true.
  Hypothesis Hopt : t_optimize (cT c) = false.
  Hypothesis Hlr : t_leftrec (cT c) = false.
  Hypothesis Hq1 : q_memo_nocharge (cQ c) = true.
  Hypothesis Hq2 : q_memo_label (cQ c) = true.
  Hypothesis Hq3 : q_memo_expected (cQ c) = true.

  Variable wrap : expr -> M (val * bool).
  Variable loopfuel : nat.
  Hypothesis Hwrap : forall e, balanced (wrap e).

  Lemma any_bal : balanced (parseAnyMatcher c).
  Proof. intros s a s'. unfold parseAnyMatcher. destruct (is_eof s); intros [= _ <-]; auto with bal. Qed.

  Lemma cls_bal cv chars ranges classes ic inv table : balanced (parseCharClassMatcher c cv chars ranges classes ic inv table).
  Proof.
    intros s a s'. unfold parseCharClassMatcher, cls_match.
    destruct (_ && _); [destruct (Bool.eqb _ _) | destruct (is_eof s); [|destruct (class_decide _ _ _ _ _ _ _)]];
      intros [= _ <-]; auto with bal.
  Qed.

  Lemma lit_loop_bal ic want start rs : balanced (lit_loop c ic want start rs).
  Proof.
    induction rs as [|w rs IH]; intros s a s'; cbn [lit_loop].
    - intros [= _ <-]. auto with bal.
    - destruct (_ && _).
      + intros H. apply Bal_trans with (read c s); [auto with bal | exact (IH _ _ _ H)].
      + intros [= _ <-]. auto with bal.
  Qed.

  Lemma lit_bal lv ic want : balanced (parseLitMatcher c lv ic want).
  Proof. intros s. apply lit_loop_bal. Qed.

  Lemma choice_bal alts : balanced (choice_loop c wrap alts).
  Proof. induction alts as [|a alts IH]; cbn [choice_loop]; auto 12 with bal. Qed.

  Lemma seq_loop_bal p saved es : forall acc, balanced (seq_loop c wrap p saved es acc).
  Proof. induction es as [|e es IH]; cbn [seq_loop]; auto 12 with bal. Qed.

  Lemma rep_loop_bal n e : forall acc, balanced (rep_loop wrap n e acc).
  Proof. induction n as [|n IH]; cbn [rep_loop]; [discriminate | auto 12 with bal]. Qed.

  Lemma throw_loop_bal l stack : balanced (throw_loop c wrap l stack).
  Proof. induction stack as [|[ls rc] stack IH]; cbn [throw_loop]; auto 12 with bal. Qed.

  Lemma throw_bal l : balanced (parseThrowExpr c wrap l).
  Proof. intros s. apply throw_loop_bal. Qed.

  Lemma rule_bal r : balanced (parseRule wrap r).
  Proof. unfold parseRule. auto 12 with bal. Qed.

  Lemma rule_memo_bal r : balanced (parseRuleMemoize c wrap r).
  Proof.
    intros s a s'. unfold parseRuleMemoize. rewrite Hq3. destruct (getMemoized _ s) as [res|].
    - intros [= _ <-]. auto with bal.
    - unfold bind at 1. destruct (parseRule wrap r s) as [res s1|pv s1|] eqn:E; [|discriminate..]. intros [= _ <-].
      (* the result of a rule is stored under a KRule key, which [stored] does not count *)
      apply Bal_trans with s1; [exact (rule_bal _ _ _ _ E) | reflexivity].
  Qed.

  Lemma rulewrap_bal r : balanced (parseRuleWrap c wrap loopfuel r).
  Proof. unfold parseRuleWrap. rewrite Hlr, Hopt, Hmemo. apply rule_memo_bal. Qed.

  Lemma ruleref_bal nm : balanced (parseRuleRefExpr c wrap loopfuel nm).
  Proof.
    unfold parseRuleRefExpr. destruct nm as [|b nm]; [discriminate|]. destruct (find_rule _ _) as [r|]; [apply rulewrap_bal|].
    intros s a s' [= _ <-]. auto with bal.
  Qed.

  Lemma parseExpr_bal e s a s' : parseExpr c wrap loopfuel e s = Ok a s' -> Bal (set_exprCnt (exprCnt s + 1) s) s'.
  Proof.
    unfold parseExpr, parseSeqExpr, parseZeroOrMoreExpr, parseOneOrMoreExpr, parseZeroOrOneExpr, parseAndExpr, parseNotExpr,
      parseLabeledExpr, parseActionExpr, parseCodePred, parseStateCodeExpr, fresh_ctx, parseRecoveryExpr.
    (* an expression budget only adds a way to panic, and so does a state block without a state store; otherwise each
       kind of expression is a computation run from the state in which it has been counted *)
    destruct (negb _ && _); [discriminate|]. revert a s'. generalize (set_exprCnt (exprCnt s + 1) s).
    destruct e; try (destruct (has_state (cT c)); [|discriminate]); refine (_ : balanced _);
      auto 12 using any_bal, cls_bal, lit_bal, choice_bal, seq_loop_bal, rep_loop_bal, throw_bal, ruleref_bal with bal.
  Qed.

  Lemma wrapbody_bal e : balanced (parseExprWrapBody c wrap loopfuel e).
  Proof.
    intros s a s'. unfold parseExprWrapBody, bind, memo_active. rewrite Hopt, Hlr, Hmemo, Hq2, Hq3.
    destruct (getMemoized _ s) as [res|].
    - rewrite Hq1. intros [= _ <-]. auto with bal.
    - destruct (parseExpr c wrap loopfuel e s) as [r s1|pv s1|] eqn:E; [|discriminate..]. intros [= _ <-].
      apply Bal_eval. exact (parseExpr_bal _ _ _ _ E).
  Qed.
End Step.

Section Fuel.
  Variable c : cfg.
  Hypothesis Hmemo : o_memoize (cO c) = true.
  Hypothesis Hopt : t_optimize (cT c) = false.
  Hypothesis Hlr : t_leftrec (cT c) = false.
  Hypothesis Hq1 : q_memo_nocharge (cQ c) = true.
  Hypothesis Hq2 : q_memo_label (cQ c) = true.
  Hypothesis Hq3 : q_memo_expected (cQ c) = true.

  Theorem parseExprWrap_bal fuel : forall e, balanced (parseExprWrap c fuel e).
  Proof. induction fuel as [|f IH]; [discriminate | apply wrapbody_bal; auto]. Qed.

  (* the evaluation of the start rule that Parse performs, when there is one *)
  Definition start_eval (fuel : nat) : option (Res (val * bool)) :=
    match cG c with
    | [] => None
    | _ => match entry_name c with
           | None => None
           | Some en => match find_rule en (cG c) with
                        | None => None
                        | Some r => Some (parseRuleWrap c (parseExprWrap c fuel) fuel r (read c (init_state c)))
                        end
           end
    end.

  Definition did_not_panic (fuel : nat) : Prop := forall pv s, start_eval fuel <> Some (Panic pv s).

  (* Parse is that evaluation and a last step, which at most adds one error *)
  Lemma parse_start fuel :
    match start_eval fuel with
    | None => parse c fuel = Diverged \/ exists msg, parse c fuel = finish c VNil (addErr c msg (init_state c))
    | Some r =>
        (exists sr, r = parseRuleWrap c (parseExprWrap c fuel) fuel sr (read c (init_state c))) /\
        parse c fuel = match r with
                       | OutOfFuel => Diverged
                       | Panic pv s' => if o_recover (cO c) then finish c VNil (addErr c pv s') else Panicked pv s'
                       | Ok (v, ok) s' =>
                           if ok then finish c v s'
                           else match errs s' with [] => finish c VNil (no_match_error c s') | _ => finish c VNil s' end
                       end
    end.
  Proof.
    unfold parse, start_eval. destruct (cG c); [eauto|]. destruct (entry_name c); [|auto]. destruct (find_rule _ _); eauto.
  Qed.

  Lemma parse_final fuel v errors final : did_not_panic fuel -> parse c fuel = Returned v errors final ->
    (memo final = [] /\ exprCnt final = 0) \/
    exists sr a s', parseRuleWrap c (parseExprWrap c fuel) fuel sr (read c (init_state c)) = Ok a s' /\
                    memo final = memo s' /\ exprCnt final = exprCnt s'.
  Proof.
    intros Hnp H. unfold did_not_panic in Hnp. pose proof (parse_start fuel) as P.
    destruct (start_eval fuel) as [[[v0 ok] s'|pv s'|]|].
    - destruct P as [[sr E] P]. right. exists sr, (v0, ok), s'. split; [auto|]. rewrite P in H.
      destruct ok; [|destruct (errs s')]; injection H as _ _ <-; auto.
    - destruct (Hnp pv s' eq_refl).
    - destruct P as [_ P]. congruence.
    - left. destruct P as [P|[msg P]]; [congruence|]. rewrite P in H. injection H as _ _ <-. auto.
  Qed.

  Theorem evaluations_are_stored_results fuel v errors final :
    did_not_panic fuel ->
    parse c fuel = Returned v errors final -> exprCnt final = stored (memo final).
  Proof.
    intros Hnp H. destruct (parse_final _ _ _ _ Hnp H) as [[-> ->]|(sr & a & s' & E & -> & ->)]; [reflexivity|].
    apply rulewrap_bal in E; auto using parseExprWrap_bal.
    assert (B : Bal (init_state c) s') by (apply Bal_trans with (read c (init_state c)); auto with bal).
    (* the initial state has counted and stored nothing *)
    rewrite <- (N.add_0_r (exprCnt s')). exact B.
  Qed.

  Corollary evaluations_are_stored_results_without_recover fuel v errors final :
    o_recover (cO c) = false ->
    parse c fuel = Returned v errors final -> exprCnt final = stored (memo final).
  Proof.
    intros Hrec H. apply (evaluations_are_stored_results fuel v errors final); [|exact H].
    intros pv s E. pose proof (parse_start fuel) as P. rewrite E in P. destruct P as [_ P]. rewrite P, Hrec in H. discriminate.
  Qed.

  (* Memoize bounds the work - partial: the hypothesis that no (offset, expression) pair is stored twice is what the
     absence of left recursion provides (not proved here: decided on the implementation by the C06 check), and the
     finite set the pairs lie in is left to the caller (offsets 0..|input|, expressions of the grammar) *)
  Theorem linear_bound_partial fuel v errors final (offs : list nat) (ids : list nid) :
    did_not_panic fuel ->
    parse c fuel = Returned v errors final ->
    NoDup (expr_keys (memo final)) ->
    incl (expr_keys (memo final)) (list_prod offs ids) ->
    exprCnt final <= N.of_nat (length offs) * N.of_nat (length ids).
  Proof.
    intros Hnp H Hnd Hin. rewrite (evaluations_are_stored_results fuel v errors final Hnp H). unfold stored.
    pose proof (NoDup_incl_length Hnd Hin) as L. rewrite prod_length in L. lia.
  Qed.

  Lemma keys_within s : I c s -> forall o n, In (o, n) (expr_keys (memo s)) -> (o <= length (cData c))%nat.
  Proof.
    intros [_ Hm _] o n Hin. apply in_flat_map in Hin as ([[o' k] r] & Hen & Hk).
    apply (proj1 (Forall_forall _ _) Hm) in Hen as ((_ & _ & L) & _ & Ho).
    destruct k as [n'|rn]; [|contradiction]. destruct Hk as [[= <- _]|[]]. exact (Nat.le_trans _ _ _ Ho L).
  Qed.

  (* the same with the offsets bounded by the invariant of the run-time model; the hypothesis that no pair is stored
     twice remains *)
  Theorem linear_bound_nodup fuel v errors final (ids : list nid) :
    did_not_panic fuel ->
    parse c fuel = Returned v errors final ->
    NoDup (expr_keys (memo final)) ->
    (forall o n, In (o, n) (expr_keys (memo final)) -> In n ids) ->
    exprCnt final <= N.of_nat (length ids) * (N.of_nat (length (cData c)) + 1).
  Proof.
    intros Hnp H Hnd Hids. rewrite N.mul_comm, N.add_1_r, <- Nat2N.inj_succ, <- (seq_length (S (length (cData c))) 0).
    apply (linear_bound_partial fuel v errors final); auto.
    intros [o n] Hk. apply in_prod; [|eauto]. apply in_seq. split; [apply Nat.le_0_l|]. apply le_n_S. revert o n Hk.
    (* the final table is the one the start rule left, and its evaluation keeps the invariant *)
    destruct (parse_final _ _ _ _ Hnp H) as [[-> _]|(sr & [v0 ok] & s' & E & -> & _)]; [intros o n []|].
    apply keys_within. pose proof (parseRuleWrap_inv c fuel fuel sr _ (I_init c)) as Hs. rewrite E in Hs. apply Hs.
  Qed.
End Fuel.

(* the node numbers of MemoRefuted.g_memo, for the example of Props/C06.v that meets the hypotheses *)
Definition example_ids : list nid := map N.of_nat (seq 1 15).
