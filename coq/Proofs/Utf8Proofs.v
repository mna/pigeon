(* The model of utf8.DecodeRune against the encoder of Unicode scalar values (the
   independent reading of "valid UTF-8 sequence").  The two meet in the table of
   well-formed byte sequences [wf_seq]: its rows are exactly the encodings of scalar
   values ([wf_seq_encode], arithmetic only) and [decode] accepts exactly its rows
   ([decode_wf], [decode_cases], comparisons only).  What is said about [decode]
   after that follows from [decode_cases] without unfolding [decode] again. *)
From PV Require Import Lib.Base Lib.Utf8.
Local Open Scope Z_scope.

Lemma zb_nb z : 0 <= z -> zb (nb z) = z.
Proof. apply Z2N.id. Qed.

Lemma nb_zb b : nb (zb b) = b.
Proof. apply N2Z.id. Qed.

Lemma eq_nb b z : zb b = z -> b = nb z.
Proof. intros <-. symmetry. apply nb_zb. Qed.

Lemma zb_nonneg b : 0 <= zb b.
Proof. apply N2Z.is_nonneg. Qed.

Lemma decode_nil : decode [] = (RuneError, 0%nat).
Proof. reflexivity. Qed.

Lemma range_iff lo hi x : (lo <=? x) && (x <=? hi) = true <-> lo <= x <= hi.
Proof. rewrite andb_true_iff, !Z.leb_le. reflexivity. Qed.

Lemma is_cont_iff b : is_cont b = true <-> 128 <= zb b <= 191.
Proof. apply range_iff. Qed.

(* Table 3-7 of the Unicode standard (RFC 3629, section 4), each row with the value it
   denotes.  After the first and the last lead byte of the three- and four-byte rows
   the second byte is restricted further: this is what excludes overlong forms (E0, F0),
   surrogates (ED) and values above U+10FFFF (F4).  The premises are kept apart and
   about [zb b], so that [lia] uses those it needs as they stand. *)
Inductive wf_seq : bytes -> rune -> Prop :=
| wf1 b0 r :
    zb b0 < 128 -> r = zb b0 ->
    wf_seq [b0] r
| wf2 b0 b1 r :
    194 <= zb b0 < 224 -> 128 <= zb b1 <= 191 ->
    r = (zb b0 - 192) * 64 + (zb b1 - 128) ->
    wf_seq [b0; b1] r
| wf3 b0 b1 b2 r :
    224 <= zb b0 < 240 -> 128 <= zb b1 <= 191 -> 128 <= zb b2 <= 191 ->
    (zb b0 = 224 -> 160 <= zb b1) -> (zb b0 = 237 -> zb b1 <= 159) ->
    r = (zb b0 - 224) * 4096 + (zb b1 - 128) * 64 + (zb b2 - 128) ->
    wf_seq [b0; b1; b2] r
| wf4 b0 b1 b2 b3 r :
    240 <= zb b0 < 245 -> 128 <= zb b1 <= 191 -> 128 <= zb b2 <= 191 -> 128 <= zb b3 <= 191 ->
    (zb b0 = 240 -> 144 <= zb b1) -> (zb b0 = 244 -> zb b1 <= 143) ->
    r = (zb b0 - 240) * 262144 + (zb b1 - 128) * 4096 + (zb b2 - 128) * 64 + (zb b3 - 128) ->
    wf_seq [b0; b1; b2; b3] r.

(* Base-64 digits of [r], as far as the encoder goes: they exist, and are unique.
   These are the only facts about division needed; given them, [r / 64], [r mod 64]
   and the like are atoms for [lia]. *)
Lemma base64_digits r :
  r = 64 * (r / 64) + r mod 64 /\ r / 64 = 64 * (r / 4096) + (r / 64) mod 64 /\
  r / 4096 = 64 * (r / 262144) + (r / 4096) mod 64 /\
  0 <= r mod 64 < 64 /\ 0 <= (r / 64) mod 64 < 64 /\ 0 <= (r / 4096) mod 64 < 64.
Proof.
  change 4096 with (64 * 64). change 262144 with (64 * 64 * 64).
  rewrite <- !Z.div_div by lia.
  repeat split; try apply Z.div_mod; try apply Z.mod_pos_bound; lia.
Qed.

Lemma base64_unique r x0 x1 x2 x3 :
  0 <= x1 < 64 -> 0 <= x2 < 64 -> 0 <= x3 < 64 ->
  r = x0 * 262144 + x1 * 4096 + x2 * 64 + x3 ->
  r mod 64 = x3 /\ (r / 64) mod 64 = x2 /\ (r / 4096) mod 64 = x1 /\
  r / 64 = x0 * 4096 + x1 * 64 + x2 /\ r / 4096 = x0 * 64 + x1 /\ r / 262144 = x0.
Proof.
  intros H1 H2 H3 Hr. destruct (base64_digits r) as (D0 & D1 & D2 & B0 & B1 & B2).
  assert (E0 : r / 64 = x0 * 4096 + x1 * 64 + x2) by lia.
  assert (E1 : r / 4096 = x0 * 64 + x1) by lia.
  repeat split; lia.
Qed.

Lemma wf_seq_encode s r : wf_seq s r <-> scalar r /\ s = encode r.
Proof.
  unfold scalar, encode. split.
  - destruct 1 as [b0 r|b0 b1 r|b0 b1 b2 r|b0 b1 b2 b3 r].
    + pose proof (zb_nonneg b0). rewrite (proj2 (Z.ltb_lt r 128)) by lia.
      split; [lia|]. f_equal. apply eq_nb. auto.
    + destruct (base64_unique r 0 0 (zb b0 - 192) (zb b1 - 128)) as (? & ? & ? & ? & ? & ?); [lia..|].
      rewrite (proj2 (Z.ltb_ge r 128)), (proj2 (Z.ltb_lt r 2048)) by lia.
      split; [lia|]. repeat f_equal; apply eq_nb; lia.
    + destruct (base64_unique r 0 (zb b0 - 224) (zb b1 - 128) (zb b2 - 128)) as (? & ? & ? & ? & ? & ?); [lia..|].
      rewrite (proj2 (Z.ltb_ge r 128)), (proj2 (Z.ltb_ge r 2048)), (proj2 (Z.ltb_lt r 65536)) by lia.
      split; [lia|]. repeat f_equal; apply eq_nb; lia.
    + destruct (base64_unique r (zb b0 - 240) (zb b1 - 128) (zb b2 - 128) (zb b3 - 128)) as (? & ? & ? & ? & ? & ?); [lia..|].
      rewrite (proj2 (Z.ltb_ge r 128)), (proj2 (Z.ltb_ge r 2048)), (proj2 (Z.ltb_ge r 65536)) by lia.
      split; [lia|]. repeat f_equal; apply eq_nb; lia.
  - intros [Hs ->]. destruct (base64_digits r) as (D0 & D1 & D2 & B0 & B1 & B2).
    destruct (Z.ltb_spec r 128); [|destruct (Z.ltb_spec r 2048); [|destruct (Z.ltb_spec r 65536)]];
      constructor; rewrite ?zb_nb by lia; lia.
Qed.

Lemma decode_wf s r rest : wf_seq s r -> decode (s ++ rest) = (r, length s).
Proof.
  destruct 1 as [b0 r|b0 b1 r|b0 b1 b2 r|b0 b1 b2 b3 r]; subst r; cbn [app length]; unfold decode.
  - rewrite (proj2 (Z.ltb_lt _ 128)) by lia. reflexivity.
  - rewrite (proj2 (Z.ltb_ge _ 128)), (proj2 (Z.ltb_ge _ 194)), (proj2 (Z.ltb_lt _ 224)) by lia.
    rewrite (proj2 (is_cont_iff _)) by assumption. reflexivity.
  - rewrite (proj2 (Z.ltb_ge _ 128)), (proj2 (Z.ltb_ge _ 194)), (proj2 (Z.ltb_ge _ 224)),
      (proj2 (Z.ltb_lt _ 240)) by lia.
    rewrite (proj2 (is_cont_iff _)), (proj2 (range_iff _ _ _)); [reflexivity| |assumption].
    destruct (Z.eqb_spec (zb b0) 224), (Z.eqb_spec (zb b0) 237); lia.
  - rewrite (proj2 (Z.ltb_ge _ 128)), (proj2 (Z.ltb_ge _ 194)), (proj2 (Z.ltb_ge _ 224)),
      (proj2 (Z.ltb_ge _ 240)), (proj2 (Z.ltb_lt _ 245)) by lia.
    rewrite !(proj2 (is_cont_iff _)), (proj2 (range_iff _ _ _)); [reflexivity| |assumption..].
    destruct (Z.eqb_spec (zb b0) 240), (Z.eqb_spec (zb b0) 244); lia.
Qed.

Theorem decode_encode r rest :
  scalar r -> decode (encode r ++ rest) = (r, length (encode r)).
Proof. intros H. apply decode_wf, wf_seq_encode. auto. Qed.

(* What [decode] returns, as a view: [destruct (decode_cases bs)] replaces [bs] and
   [decode bs] together.  That the third case arises only when no prefix is an encoding
   is [decode_invalid_iff]. *)
Inductive decode_spec : bytes -> rune * nat -> Prop :=
| dec_eof : decode_spec [] (RuneError, 0%nat)
| dec_valid r rest : scalar r -> decode_spec (encode r ++ rest) (r, length (encode r))
| dec_invalid b rest : decode_spec (b :: rest) (RuneError, 1%nat).

Lemma decode_cases bs : decode_spec bs (decode bs).
Proof.
  assert (V : forall s r rest, wf_seq s r -> decode_spec (s ++ rest) (r, length s)).
  { intros s r rest H. apply wf_seq_encode in H as [H ->]. constructor. exact H. }
  destruct bs as [|b0 tl]; [constructor|]. unfold decode.
  destruct (Z.ltb_spec (zb b0) 128). { apply (V [b0]). constructor; auto. }
  destruct (Z.ltb_spec (zb b0) 194); [constructor|].
  destruct (Z.ltb_spec (zb b0) 224).
  { destruct tl as [|b1 tl]; [constructor|].
    destruct (is_cont b1) eqn:E1; [|constructor]. apply is_cont_iff in E1.
    apply (V [b0; b1]). constructor; auto. }
  destruct (Z.ltb_spec (zb b0) 240).
  { destruct tl as [|b1 [|b2 tl]]; [constructor..|].
    destruct (_ && _) eqn:E; [|constructor]. apply andb_true_iff in E as [E1 E2].
    apply is_cont_iff in E2.
    apply (V [b0; b1; b2]). constructor; auto;
      destruct (Z.eqb_spec (zb b0) 224), (Z.eqb_spec (zb b0) 237); lia. }
  destruct (Z.ltb_spec (zb b0) 245); [|constructor].
  destruct tl as [|b1 [|b2 [|b3 tl]]]; [constructor..|].
  destruct (_ && _) eqn:E; [|constructor]. apply andb_true_iff in E as [E E3].
  apply andb_true_iff in E as [E1 E2].
  apply is_cont_iff in E2. apply is_cont_iff in E3.
  apply (V [b0; b1; b2; b3]). constructor; auto;
    destruct (Z.eqb_spec (zb b0) 240), (Z.eqb_spec (zb b0) 244); lia.
Qed.

Lemma decode_width_le bs : (snd (decode bs) <= length bs)%nat.
Proof.
  destruct (decode_cases bs) as [|r rest _|b rest]; cbn [snd]; [|rewrite app_length|cbn]; lia.
Qed.

Lemma decode_width_zero bs : snd (decode bs) = 0%nat <-> bs = [].
Proof.
  split; [|intros ->; reflexivity].
  destruct (decode_cases bs) as [|r rest _|b rest]; [reflexivity| |discriminate].
  unfold encode. destruct (r <? 128), (r <? 2048), (r <? 65536); discriminate.
Qed.

Lemma decode_nonneg bs : 0 <= fst (decode bs).
Proof.
  destruct (decode_cases bs) as [|r rest H|b rest]; cbn [fst]; unfold RuneError, scalar in *; lia.
Qed.

(* Whatever decode accepts with width >= 2, or width 1 and a rune other than the
   error rune, is the encoding of a scalar value: overlongs, surrogates, values
   above U+10FFFF, truncated sequences and stray continuation bytes are all rejected. *)
Theorem decode_sound bs r w :
  decode bs = (r, w) -> (w <> 0)%nat -> ~ (r = RuneError /\ w = 1%nat) ->
  scalar r /\ firstn w bs = encode r.
Proof.
  destruct (decode_cases bs) as [|r' rest H|b rest]; intros [= <- <-] Hw Hn; [contradiction| |tauto].
  rewrite firstn_app, firstn_all, Nat.sub_diag, app_nil_r. auto.
Qed.

Definition invalid_at (bs : bytes) : Prop :=
  bs <> [] /\ forall r rest, scalar r -> bs <> encode r ++ rest.

Theorem decode_invalid_iff bs :
  decode bs = (RuneError, 1%nat) <-> invalid_at bs.
Proof.
  split.
  - split; [intros ->; discriminate|].
    intros r rest Hs ->. rewrite decode_encode in H by assumption.
    injection H as -> H. discriminate.
  - intros [Hne Hno].
    destruct (decode_cases bs) as [|r rest H|b rest]; [contradiction| |reflexivity].
    destruct (Hno r rest H). reflexivity.
Qed.

(* A validly encoded U+FFFD has width 3 and is therefore never confused with an invalid byte. *)
Lemma decode_valid_replacement rest :
  decode ([239%N; 191%N; 189%N] ++ rest) = (RuneError, 3%nat).
Proof. reflexivity. Qed.
