(* C07 (one direction): whatever cycle PrepareGrammar reports is a left-recursive cycle of
   the specification - for every iteration order of the rules map, every amount of fuel and
   every setting of the analysis quirks.  Hence a grammar without such a cycle is accepted,
   with the same result in every order (the part of C19 that holds). *)
From PV Require Import Lib.Base Syntax.RGrammar Syntax.Ast Model.Prepare Spec.LRRel.
From Coq Require Import Relations.Relation_Operators.

Lemma getf_setf n m b s : getf m (setf n b s) = if N.eqb n m then b else getf m s.
Proof. unfold getf. cbn. destruct (N.eqb n m); reflexivity. Qed.

Lemma find_arule_In nm G r : find_arule nm G = Some r -> In r G.
Proof.
  revert r. apply (fold_left_inv (fun a => forall r, a = Some r -> In r G)); [|discriminate].
  intros a x Hx Ha r. destruct (bytes_eqb (a_name x) nm); [intros [= <-]; exact Hx | apply Ha].
Qed.

Definition children (e : aexpr) : list aexpr :=
  match e with
  | ASeq _ es | AAlt _ es => es
  | AStar e' | APlus e' | AOpt e' | AAnd e' | ANot e' | ALab _ e' | AAct _ _ e' => [e']
  | ARec _ e' rc _ => [e'; rc]
  | _ => []
  end.

Lemma aexpr_children_ind (P : aexpr -> Prop) : (forall e, Forall P (children e) -> P e) -> forall e, P e.
Proof. induction e using aexpr_ind2; apply H; cbn; auto. Qed.

(* the loop of InitialNames over a sequence: a name comes from an element behind a prefix
   that the nullability test lets through *)
Lemma seq_names_split (names : aexpr -> list rname) (nul : aexpr -> bool) r : forall l,
  In r ((fix go (l : list aexpr) : list rname :=
           match l with
           | [] => []
           | x :: l' => names x ++ (if nul x then go l' else [])
           end) l) ->
  exists pre x suf, l = pre ++ x :: suf /\ Forall (fun y => nul y = true) pre /\ In r (names x).
Proof.
  induction l as [|x l IH]; [intros []|]. intros H. apply in_app_or in H as [H|H].
  - exists [], x, l. auto.
  - destruct (nul x) eqn:E; [|destruct H]. destruct (IH H) as (pre & y & suf & -> & Hpre & Hy).
    exists (x :: pre), y, suf. auto.
Qed.

Section PrepareSound.
  Variable q : pquirks.
  Variable g : agrammar.

  (* node identities: which sub-expression of the grammar carries flag n *)
  Definition nid_of (e : aexpr) : option nid :=
    match e with
    | ASeq n _ | AAlt n _ | AAct n _ _ | ARec n _ _ _ | ARef n _ => Some n
    | _ => None
    end.

  Fixpoint subs (e : aexpr) : list aexpr :=
    e :: match e with
         | ASeq _ es | AAlt _ es => flat_map subs es
         | AStar e' | APlus e' | AOpt e' | AAnd e' | ANot e' | ALab _ e' | AAct _ _ e' => subs e'
         | ARec _ e' rc _ => subs e' ++ subs rc
         | _ => []
         end.

  Definition all_subs : list aexpr := flat_map (fun r => subs (a_expr r)) g.

  (* every flag-carrying node of the grammar has its own identity (the Go nodes are distinct objects) *)
  Definition ids_unique : Prop :=
    forall e e' n, In e all_subs -> In e' all_subs -> nid_of e = Some n -> nid_of e' = Some n -> e = e'.

  Lemma subs_children e : subs e = e :: flat_map subs (children e).
  Proof. destruct e; cbn; rewrite ?app_nil_r; reflexivity. Qed.

  Lemma subs_self e : In e (subs e).
  Proof. rewrite subs_children. left. reflexivity. Qed.

  Lemma child_in_subs e c : In c (children e) -> forall t, In e (subs t) -> In c (subs t).
  Proof.
    intros Hc. induction t as [t IH] using aexpr_children_ind. rewrite (subs_children t).
    intros [<-|He]; right; apply in_flat_map.
    - exists c. split; [exact Hc | apply subs_self].
    - apply in_flat_map in He as [x [Hx He]]. rewrite Forall_forall in IH. exists x. auto.
  Qed.

  Lemma all_subs_children e c : In e all_subs -> In c (children e) -> In c all_subs.
  Proof.
    intros He Hc. apply in_flat_map in He as [r [Hr He]]. apply in_flat_map. exists r.
    split; [exact Hr | exact (child_in_subs e c Hc _ He)].
  Qed.

  Lemma all_subs_ind (P : aexpr -> Prop) :
    (forall e, In e all_subs -> Forall P (children e) -> P e) -> forall e, In e all_subs -> P e.
  Proof.
    induction e as [e IH] using aexpr_children_ind. intros He. apply H; [exact He|].
    rewrite Forall_forall in *. intros c Hc. exact (IH c Hc (all_subs_children e c He Hc)).
  Qed.

  Lemma rule_body_in_subs r ru : find_arule r g = Some ru -> In (a_expr ru) all_subs.
  Proof.
    intros H. apply in_flat_map. exists ru. split; [exact (find_arule_In _ _ _ H) | apply subs_self].
  Qed.

  (* Reads only the nf component of the state: flag_sound (mkPst (nf s) _ _) is convertible
     with flag_sound s, which is how the proofs below step over changes to visited and rnull. *)
  Definition flag_sound (s : pst) : Prop :=
    forall e n, In e all_subs -> nid_of e = Some n -> getf n s = true -> nullable_x g e.

  Lemma is_nullable_sound s : flag_sound s -> forall e, In e all_subs -> is_nullable s e = true -> nullable_x g e.
  Proof.
    intros Hs. apply (all_subs_ind (fun e => is_nullable s e = true -> nullable_x g e)).
    intros e Hin IH Hn.
    (* any and plus never are; the nodes with a flag answer with it; repetitions, predicates, code and throw always are *)
    destruct e; cbn in Hn; try discriminate Hn; try exact (Hs _ _ Hin eq_refl Hn); try (constructor; fail).
    - destruct val; [constructor | discriminate].
    - unfold cls_empty in Hn. destruct chars, ranges, classes; try discriminate. constructor.
    - constructor. exact (Forall_inv IH Hn).
  Qed.

  Definition post (e : aexpr) (r : bool * pst) : Prop :=
    (fst r = true -> nullable_x g e) /\ flag_sound (snd r).

  Hypothesis Huniq : ids_unique.

  Lemma post_setf e n b s :
    In e all_subs -> nid_of e = Some n -> (b = true -> nullable_x g e) -> flag_sound s -> post e (b, setf n b s).
  Proof.
    intros Hin Hid Hb Hs. split; [exact Hb|]. intros e' m Hin' Hid'. cbn [snd]. rewrite getf_setf.
    destruct (N.eqb_spec n m) as [<-|_]; [|apply Hs; assumption].
    rewrite (Huniq e' e n Hin' Hin Hid' Hid). exact Hb.
  Qed.

  (* The two loops of nvisit, over any visitor v that keeps its promise on the elements.  The
     node e is known only through what the verdict has to establish, so the sequence loop needs
     no bookkeeping of the prefix already visited. *)
  Lemma seq_visit_sound (v : aexpr -> pst -> bool * pst) e n : In e all_subs -> nid_of e = Some n ->
    forall l, (forall x s, In x l -> flag_sound s -> post x (v x s)) ->
    (Forall (nullable_x g) l -> nullable_x g e) ->
    forall s, flag_sound s ->
    post e ((fix go (l : list aexpr) (s : pst) : bool * pst :=
               match l with
               | [] => (true, setf n true s)
               | x :: l' => let '(b, s1) := v x s in if b then go l' s1 else (false, setf n false s1)
               end) l s).
  Proof.
    induction l as [|x l IHl]; intros Hv Hk s Hs.
    - apply post_setf; auto.
    - destruct (Hv x s) as [A B]; [left; reflexivity | exact Hs |]. destruct (v x s) as [[|] s1].
      + apply IHl; [intros y s' Hy; apply Hv; right; exact Hy | intros Hl; apply Hk; constructor; auto | exact B].
      + apply post_setf; auto. discriminate.
  Qed.

  Lemma alt_visit_sound (v : aexpr -> pst -> bool * pst) e n : In e all_subs -> nid_of e = Some n ->
    forall l, (forall x s, In x l -> flag_sound s -> post x (v x s)) ->
    (forall x, In x l -> nullable_x g x -> nullable_x g e) ->
    forall s, flag_sound s ->
    post e ((fix go (l : list aexpr) (s : pst) : bool * pst :=
               match l with
               | [] => (false, setf n false s)
               | x :: l' =>
                   let '(b, s1) := v x s in
                   if b then
                     if pq_short q then (true, setf n true s1)
                     else (true, setf n true (fold_left (fun s2 y => snd (v y s2)) l' s1))
                   else go l' s1
               end) l s).
  Proof.
    induction l as [|x l IHl]; intros Hv Hk s Hs.
    - apply post_setf; auto. discriminate.
    - destruct (Hv x s) as [A B]; [left; reflexivity | exact Hs |]. destruct (v x s) as [[|] s1].
      + assert (He : nullable_x g e) by (apply (Hk x); [left; reflexivity | auto]).
        destruct (pq_short q); apply post_setf; auto.
        apply fold_left_inv; [|exact B]. intros s' y Hy Hs'. apply Hv; [right; exact Hy | exact Hs'].
      + apply IHl; [intros y s' Hy; apply Hv; right; exact Hy | intros y Hy; apply Hk; right; exact Hy | exact B].
  Qed.

  Lemma nvisit_sound : forall fuel e s, In e all_subs -> flag_sound s -> post e (nvisit q g fuel e s).
  Proof.
    induction fuel as [|f IH]; intros e s Hin Hs; [split; [discriminate | exact Hs]|].
    assert (IHc : forall c s', In c (children e) -> flag_sound s' -> post c (nvisit q g f c s'))
      by (intros c s' Hc; apply IH; exact (all_subs_children e c Hin Hc)).
    pose proof (is_nullable_sound s Hs e Hin) as Hn.
    (* Terminals, code blocks and throw answer as is_nullable does and leave the state alone:
       conj Hn Hs.  So do star, optional, plus and the two predicates, except that with their
       quirk off they visit the operand for the flags inside it: Hskip. *)
    assert (Hskip : forall (quirk : bool) c, In c (children e) ->
              post e (if quirk then (is_nullable s e, s) else (is_nullable s e, snd (nvisit q g f c s))))
      by (intros [|] c Hc; [exact (conj Hn Hs) | exact (conj Hn (proj2 (IHc c s Hc Hs)))]).
    destruct e; cbn [nvisit]; try exact (conj Hn Hs); try exact (Hskip _ _ (or_introl eq_refl)).
    - exact (seq_visit_sound (nvisit q g f) (ASeq n es) n Hin eq_refl es IHc (nx_seq g n es) s Hs).
    - exact (alt_visit_sound (nvisit q g f) (AAlt n es) n Hin eq_refl es IHc (nx_alt g n es) s Hs).
    - destruct (IHc e s (or_introl eq_refl) Hs) as [A B]. split; [intros Hb; constructor; auto | exact B].
    - destruct (IHc e s (or_introl eq_refl) Hs) as [A B]. destruct (nvisit q g f e s) as [b s1].
      apply post_setf; auto using nx_act.
    - assert (Hno : post (ARef n r) (false, setf n false s)) by (apply post_setf; auto; discriminate).
      destruct (find_arule r g) as [ru|] eqn:Hf; [|exact Hno]. destruct (mem_bytes r (visited s)); [exact Hno|].
      destruct (IH (a_expr ru) (mkPst (nf s) (r :: visited s) (rnull s)) (rule_body_in_subs r ru Hf) Hs) as [A B].
      destruct (nvisit q g f (a_expr ru) _) as [b s1]. apply post_setf; auto. intros Hb. exact (nx_ref g n r ru Hf (A Hb)).
    - destruct (IHc e1 s (or_introl eq_refl) Hs) as [A B]. destruct (nvisit q g f e1 s) as [[|] s1].
      + destruct (pq_short q); apply post_setf; auto using nx_rec1. apply IHc; cbn; auto.
      + destruct (IHc e2 s1 (or_intror (or_introl eq_refl)) B) as [A2 B2]. destruct (nvisit q g f e2 s1) as [b2 s2].
        apply post_setf; auto using nx_rec2.
  Qed.

  Lemma rvisit_sound fuel r s : flag_sound s -> flag_sound (rvisit q g fuel r s).
  Proof.
    intros Hs. unfold rvisit. destruct (find_arule r g) as [ru|] eqn:Hf; [|exact Hs].
    destruct (mem_bytes r (visited s)); [exact Hs|].
    destruct (nvisit_sound fuel (a_expr ru) (mkPst (nf s) (r :: visited s) (rnull s)) (rule_body_in_subs r ru Hf) Hs) as [_ B].
    destruct (nvisit q g fuel (a_expr ru) _) as [b s1]. exact B.
  Qed.

  Lemma compute_nullables_sound fuel ord : flag_sound (compute_nullables q g fuel ord).
  Proof.
    unfold compute_nullables. apply fold_left_inv; [intros s r _; apply rvisit_sound | intros e n _ _ H; discriminate H].
  Qed.

  Section WithFlags.
    Variable s : pst.
    Hypothesis Hs : flag_sound s.
    Let preds := negb (pq_pred q).

    Lemma initial_names_sound : forall e, In e all_subs -> forall r, In r (initial_names q s e) -> firstcall g preds e r.
    Proof.
      apply (all_subs_ind (fun e => forall r, In r (initial_names q s e) -> firstcall g preds e r)).
      intros e Hin IH r Hr.
      (* star, plus, optional, label and action pass their operand's names on *)
      destruct e; cbn in Hr, IH; try contradiction; try (constructor; exact (Forall_inv IH r Hr)).
      - apply seq_names_split in Hr as (pre & x & suf & -> & Hpre & Hx). rewrite Forall_forall in *.
        apply fc_seq; [|apply IH; [apply in_elt | exact Hx]].
        apply Forall_forall. intros y Hy. apply (is_nullable_sound s Hs); [|auto].
        apply (all_subs_children _ y Hin). apply in_or_app. left. exact Hy.
      - apply in_flat_map in Hr as [x [Hx Hr]]. rewrite Forall_forall in IH. apply fc_alt with (e := x); auto.
      - destruct (pq_pred q); [destruct Hr|]. apply fc_and; [reflexivity | exact (Forall_inv IH r Hr)].
      - destruct (pq_pred q); [destruct Hr|]. apply fc_not; [reflexivity | exact (Forall_inv IH r Hr)].
      - destruct Hr as [<-|[]]. constructor.
      - apply in_app_or in Hr as [Hr|Hr].
        + apply fc_rec1. exact (Forall_inv IH r Hr).
        + apply fc_rec2. exact (Forall_inv (Forall_inv_tail IH) r Hr).
    Qed.

    Lemma graph_edge_lcall a b : In b (graph_edges q g s a) -> lcall g preds a b.
    Proof.
      unfold graph_edges. destruct (find_arule a g) as [ru|] eqn:Hf; [|intros []].
      intros Hin. exists ru. split; [exact Hf | exact (initial_names_sound _ (rule_body_in_subs a ru Hf) b Hin)].
    Qed.

    Lemma reach_n_sound a : forall n from, (forall x, In x from -> clos_trans rname (lcall g preds) a x) ->
      forall x, In x (reach_n q g s n from) -> clos_trans rname (lcall g preds) a x.
    Proof.
      induction n as [|n IH]; intros from Hfrom; [exact Hfrom | apply IH].
      intros y Hy. apply nodup_bytes_In, in_app_or in Hy as [Hy|Hy]; [apply Hfrom; exact Hy|].
      apply in_flat_map in Hy as [z [Hz Hy]]. eapply t_trans; [apply Hfrom; exact Hz|]. apply t_step. apply graph_edge_lcall. exact Hy.
    Qed.

    Lemma reaches_sound a b : reaches q g s a b = true -> clos_trans rname (lcall g preds) a b.
    Proof.
      intros H. apply mem_bytes_iff in H. eapply reach_n_sound; [|exact H].
      intros x Hx. apply t_step. apply graph_edge_lcall. exact Hx.
    Qed.
  End WithFlags.

  (* PrepareGrammar either reports nothing, and then marks no rule as left-recursive or as a
     leader, or the specification has a left-recursive cycle (whether it reports left recursion
     or fails to find a leader).  The proof uses of the nullable flags only that they are sound
     and does not look into find_leader. *)
  Theorem prepare_sound fuel ord :
    match prepare q g fuel ord with
    | PrepOk false lrs leaders => lrs = [] /\ leaders = []
    | _ => lr_cycle_rel g (negb (pq_pred q))
    end.
  Proof.
    unfold prepare. generalize (compute_nullables_sound fuel ord). generalize (compute_nullables q g fuel ord).
    intros s Hs. apply fold_left_inv; [|split; reflexivity].
    intros acc v _ Hacc. destruct acc as [have lrs leaders|]; [|exact Hacc].
    unfold scc_of. destruct (filter _ _) as [|w ws] eqn:Ef.
    - destruct (mem_bytes v _) eqn:Em; [|exact Hacc].
      exists v. apply t_step, (graph_edge_lcall s Hs), mem_bytes_iff, Em.
    - assert (Hc : lr_cycle_rel g (negb (pq_pred q))).
      { pose proof (in_eq w ws) as Hw. rewrite <- Ef in Hw. apply filter_In in Hw as [_ Hw].
        apply andb_true_iff in Hw as [Hw H2]. apply andb_true_iff in Hw as [_ H1].
        exists v. eapply t_trans; eapply reaches_sound; eauto. }
      destruct (find_leader _ _ _ _); exact Hc.
  Qed.
End PrepareSound.

Corollary no_cycle_order_free q g : ids_unique g -> ~ lr_cycle_rel g (negb (pq_pred q)) ->
  forall fuel ord, prepare q g fuel ord = PrepOk false [] [].
Proof.
  intros Hu Hn fuel ord. generalize (prepare_sound q g Hu fuel ord).
  destruct (prepare q g fuel ord) as [[|] lrs leaders|]; [contradiction | intros [-> ->]; reflexivity | contradiction].
Qed.
