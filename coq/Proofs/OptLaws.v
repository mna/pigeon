(* The rewrites of -optimize-grammar, as laws of the specification's combinators.  They are stated
   for every evaluator [ev] that treats the nested node the way Ref defines it, so no fuel appears:
   - a choice nested in a choice may be flattened: nothing observable changes, not even the value;
   - a sequence nested in a sequence may be flattened: position, state, scope and log are unchanged
     and the value is regrouped only (same leaves in the same order);
   - two adjacent literals with the same i flag match exactly where their concatenation matches,
     at the same end position (the events logged for the farthest-failure report differ).
   The two flattening laws are proved up to a relation Q on records ([rres_rel], RefMono.v) that the
   evaluator respects and up to which it treats the nested node as Ref does: Q = equality is the law
   as stated above; for Ref itself, where the nested node is evaluated with less fuel and one more
   tick of the counter, Q is CntInsens.meq (RefOptLaws.v, RefSeqLaw.v). *)
From PV Require Import Lib.Base Syntax.RGrammar Model.PState Spec.Pos Model.Runtime Spec.Ref Proofs.RefMono Proofs.RefLaws.

Section Laws.
  Variable c : rdata.
  Variable ev : handlers -> option rule -> bool -> expr -> scope -> rsig -> rmu -> rres.
  Variable H : handlers.
  Variable R : option rule.
  Variable inv : bool.

  (* the scope a choice is given is only handed back *)
  Lemma ralt_app a b : forall sc0 sc g m,
    ralt ev H R inv (a ++ b) sc g m =
    rbind (ralt ev H R inv a sc0 g m) (ralt ev H R inv b sc g) (fun v g' _ m' => ROk v g' sc m').
  Proof.
    induction a as [|e a IH]; intros sc0 sc g m; cbn [app ralt rbind]; [reflexivity|].
    destruct (ev H R inv e [] g m); try reflexivity. apply IH.
  Qed.

  (* an alternative that is evaluated as a choice among b may be replaced by b *)
  Theorem choice_flattens_upto lax (Q : rmu -> rmu -> Prop) e b d :
    ev_rel lax Q ev ev ->
    (forall g m1 m2, Q m1 m2 -> rres_rel lax eq Q (ev H R inv e [] g m1) (ralt ev H R inv b [] g m2)) ->
    forall a sc g m1 m2, Q m1 m2 ->
      rres_rel lax eq Q (ralt ev H R inv (a ++ e :: d) sc g m1) (ralt ev H R inv (a ++ b ++ d) sc g m2).
  Proof.
    intros Hev Hn. induction a as [|e0 a IH]; intros sc g m1 m2 Hm; cbn [app].
    - rewrite (ralt_app b d []).
      apply rbind_rel; [apply Hn; exact Hm | intros; apply ralt_rel; assumption | intros; cbn; auto].
    - cbn [ralt]. apply rbind_rel; [apply Hev; exact Hm | intros; apply IH; assumption | intros; cbn; auto].
  Qed.

  Theorem choice_in_choice_flattens n a b d sc g m :
    (forall g0 m0, ev H R inv (EAlt n b) [] g0 m0 = ralt ev H R inv b [] g0 m0) ->
    ralt ev H R inv (a ++ EAlt n b :: d) sc g m = ralt ev H R inv (a ++ b ++ d) sc g m.
  Proof.
    intros Hn. apply rres_rel_eq, (choice_flattens_upto False eq); [apply ev_rel_eq | | reflexivity].
    intros g0 m1 m2 <-. rewrite Hn. apply rres_rel_refl; reflexivity.
  Qed.

  Fixpoint leaves (v : val) : list val :=
    match v with
    | VList l => (fix go (l : list val) := match l with [] => [] | x :: l' => leaves x ++ go l' end) l
    | other => [other]
    end.
  Definition leaves_list (l : list val) : list val := concat (map leaves l).

  Lemma leaves_VList l : leaves (VList l) = leaves_list l.
  Proof. cbn [leaves]. induction l as [|x l IH]; [reflexivity|]. rewrite IH. reflexivity. Qed.

  Lemma leaves_list_app a b : leaves_list (a ++ b) = leaves_list a ++ leaves_list b.
  Proof. unfold leaves_list. rewrite map_app, concat_app. reflexivity. Qed.

  Definition same_upto_grouping (x y : rres) : Prop :=
    match x, y with
    | ROk v g sc m, ROk v' g' sc' m' => leaves v = leaves v' /\ g = g' /\ sc = sc' /\ m = m'
    | RFail m, RFail m' => m = m'
    | RPanic pv m pos r, RPanic pv' m' pos' r' => pv = pv' /\ m = m' /\ pos = pos' /\ r = r'
    | ROut, ROut => True
    | _, _ => False
    end.

  Definition same_leaves (v v' : val) : Prop := leaves v = leaves v'.

  Lemma rres_rel_grouping x y : rres_rel False same_leaves eq x y -> same_upto_grouping x y.
  Proof. destruct x, y; cbn; intros X; try exact X. destruct X as (-> & -> & -> & ->). auto. Qed.

  Lemma same_leaves_app l1 l2 k1 k2 : same_leaves (VList l1) (VList l2) -> leaves_list k1 = leaves_list k2 ->
    same_leaves (VList (l1 ++ k1)) (VList (l2 ++ k2)).
  Proof. unfold same_leaves. rewrite !leaves_VList, !leaves_list_app. congruence. Qed.

  Lemma same_leaves_snoc v l1 l2 : same_leaves (VList l1) (VList l2) -> same_leaves (VList (l1 ++ [v])) (VList (l2 ++ [v])).
  Proof. intros E. apply same_leaves_app; [exact E | reflexivity]. Qed.

  Lemma rseq_app a b : forall acc sc g m,
    rseq ev H R inv (a ++ b) acc sc g m =
    match rseq ev H R inv a acc sc g m with
    | ROk (VList vs) g' sc' m' => rseq ev H R inv b (rev vs) sc' g' m'
    | other => other
    end.
  Proof.
    induction a as [|e a IH]; intros acc sc g m; cbn [app rseq].
    - rewrite rev_involutive. reflexivity.
    - destruct (ev H R inv e sc g m); try reflexivity. apply IH.
  Qed.

  Lemma rseq_is_list es acc sc g m v g' sc' m' :
    rseq ev H R inv es acc sc g m = ROk v g' sc' m' -> exists vs, v = VList (rev acc ++ vs).
  Proof. intros Hr. destruct (seq_values ev H R inv es acc sc g m v g' sc' m' Hr) as (vs & -> & _). eauto. Qed.

  (* what was accumulated before only matters as a prefix of the value *)
  Lemma rseq_acc es : forall acc0 acc sc g m,
    rseq ev H R inv es (acc0 ++ acc) sc g m =
    match rseq ev H R inv es acc0 sc g m with
    | ROk (VList vs) g' sc' m' => ROk (VList (rev acc ++ vs)) g' sc' m'
    | other => other
    end.
  Proof.
    induction es as [|e es IH]; intros acc0 acc sc g m; cbn [rseq].
    - rewrite rev_app_distr. reflexivity.
    - destruct (ev H R inv e sc g m) as [m1|v1 g1 sc1 m1|pv m1 pos r1|]; try reflexivity.
      apply (IH (v1 :: acc0)).
  Qed.

  (* an item that is evaluated as the sequence b may be replaced by the items of b *)
  Theorem sequence_flattens_upto lax (Q : rmu -> rmu -> Prop) e b d :
    ev_rel lax Q ev ev ->
    (forall sc g m1 m2, Q m1 m2 -> rres_rel lax eq Q (ev H R inv e sc g m1) (rseq ev H R inv b [] sc g m2)) ->
    forall a acc1 acc2 sc g m1 m2, same_leaves (VList (rev acc1)) (VList (rev acc2)) -> Q m1 m2 ->
      rres_rel lax same_leaves Q (rseq ev H R inv (a ++ e :: d) acc1 sc g m1)
                                 (rseq ev H R inv (a ++ b ++ d) acc2 sc g m2).
  Proof.
    intros Hev Hn. induction a as [|e0 a IH]; intros acc1 acc2 sc g m1 m2 Ha Hm; cbn [app].
    - rewrite rseq_app, (rseq_acc b [] acc2). cbn [rseq]. pose proof (Hn sc g m1 m2 Hm) as X.
      destruct (ev H R inv e sc g m1), (rseq ev H R inv b [] sc g m2) eqn:Eb; try contradiction;
        auto using rres_rel_out.
      destruct X as (-> & -> & -> & X). destruct (rseq_is_list _ _ _ _ _ _ _ _ _ Eb) as [vs ->]. cbn [rev app].
      (* the nested value, as one item on the left and item by item on the right *)
      apply (rseq_rel lax Q ev ev Hev H R inv same_leaves same_leaves_snoc); [|exact X].
      rewrite rev_involutive. apply same_leaves_app; [exact Ha|].
      unfold leaves_list. cbn [map concat]. rewrite leaves_VList, app_nil_r. reflexivity.
    - cbn [rseq]. apply rbind_rel; [apply Hev; exact Hm | auto |].
      intros v g' sc' n1 n2 Hq. apply IH; [apply same_leaves_snoc; exact Ha | exact Hq].
  Qed.

  Theorem sequence_in_sequence_flattens n a b d sc g m :
    (forall sc0 g0 m0, ev H R inv (ESeq n b) sc0 g0 m0 = rseq ev H R inv b [] sc0 g0 m0) ->
    same_upto_grouping (rseq ev H R inv (a ++ ESeq n b :: d) [] sc g m) (rseq ev H R inv (a ++ b ++ d) [] sc g m).
  Proof.
    intros Hn. apply rres_rel_grouping, sequence_flattens_upto; [apply ev_rel_eq | | reflexivity | reflexivity].
    intros sc0 g0 m1 m2 <-. rewrite Hn. apply rres_rel_refl; reflexivity.
  Qed.

  Lemma lit_match_app ic rs1 rs2 : forall o m,
    lit_match c R ic (rs1 ++ rs2) o m =
    match lit_match c R ic rs1 o m with
    | (Some (o1, m1), _) => lit_match c R ic rs2 o1 m1
    | (None, mf) => (None, mf)
    end.
  Proof.
    induction rs1 as [|w rs1 IH]; intros o m; cbn [app lit_match]; [reflexivity|].
    destruct (step_rune c R o m _) as [[o1 m1]|]; [apply IH | reflexivity].
  Qed.

  (* success and end position (state, scope) of an outcome *)
  Definition same_extent (x y : rres) : Prop :=
    match x, y with
    | ROk _ g sc _, ROk _ g' sc' _ => g = g' /\ sc = sc'
    | RFail _, RFail _ => True
    | _, _ => False
    end.

  Theorem adjacent_literals_concatenate lf n1 n2 n rs1 rs2 ic w1 w2 w sc g m :
    (forall nn rs ww sc0 g0 m0, ev H R inv (ELit nn rs ic ww) sc0 g0 m0 = reval_body c ev lf H R inv (ELit nn rs ic ww) sc0 g0 m0) ->
    same_extent (rseq ev H R inv [ELit n1 rs1 ic w1; ELit n2 rs2 ic w2] [] sc g m)
                (reval_body c ev lf H R inv (ELit n (rs1 ++ rs2) ic w) sc g m).
  Proof.
    intros Hl. cbn [rseq]. rewrite !Hl. cbn [reval_body]. rewrite lit_match_app.
    destruct (lit_match c R ic rs1 (g_off g) m) as [[[o1 m1]|] mf1]; cbn [term_result same_extent]; auto.
    rewrite Hl. cbn [reval_body g_off g_st].
    (* the offset the second literal reaches does not depend on what the first one logged *)
    pose proof (lit_match_rel c (fun _ _ => True) (fun _ _ _ _ => I) R ic rs2 o1
                  (log (RTerm (pos_of (rData c) (g_off g)) w1 true inv) m1) m1 I) as [X _].
    destruct (lit_match c R ic rs2 o1 (log _ m1)) as [[[o2 m2]|] mf2], (lit_match c R ic rs2 o1 m1) as [[[o2' m2']|] mf2'];
        cbn [term_result same_extent]; auto.
    destruct X as [-> _]. auto.
  Qed.
End Laws.
