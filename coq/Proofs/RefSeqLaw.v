(* The sequence-in-sequence law for Ref itself, as the choice law in RefOptLaws.v. *)
From PV Require Import Lib.Base Syntax.RGrammar Model.Runtime Spec.Ref Proofs.RefMono Proofs.OptLaws Proofs.CntInsens.

Section SeqLaw.
  Variable c : rdata.
  Hypothesis Hbud : o_maxexpr (rO c) = 0%N.

  (* same outcome up to the counter and up to regrouping of the value: [rres_rel False same_leaves meq] written out,
     and convertible with it *)
  Definition rsimg (x y : rres) : Prop :=
    match x, y with
    | ROk v g sc m, ROk v' g' sc' m' => leaves v = leaves v' /\ g = g' /\ sc = sc' /\ meq m m'
    | RFail m, RFail m' => meq m m'
    | RPanic pv m pos r, RPanic pv' m' pos' r' => pv = pv' /\ pos = pos' /\ r = r' /\ meq m m'
    | ROut, ROut => True
    | _, _ => False
    end.

  Lemma rsim_rsimg x y : rsim x y -> rsimg x y.
  Proof. destruct x, y; cbn; auto. intros (-> & X). auto. Qed.

  Theorem ref_sequence_in_sequence_flattens f H R inv n n' a b d sc g m :
    reval c (S (S f)) H R inv (ESeq n (a ++ ESeq n' b :: d)) sc g m <> ROut ->
    rsimg (reval c (S (S f)) H R inv (ESeq n (a ++ ESeq n' b :: d)) sc g m)
          (reval c (S (S f)) H R inv (ESeq n (a ++ b ++ d)) sc g m).
  Proof.
    rewrite !(reval_S_nobudget c Hbud (S f)).
    apply (rres_rel_strict True), sequence_flattens_upto; [| |reflexivity|apply meq_refl].
    - apply (reval_fuel_cnt c Hbud). left. reflexivity.
    - apply (reval_node c Hbud f H R inv (ESeq n' b)).
  Qed.
End SeqLaw.
