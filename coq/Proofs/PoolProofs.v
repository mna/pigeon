(* Isolation of concurrent parses at the level of the state-store bookkeeping: whatever the
   interleaving and whatever maps the pool hands out, each parser observes exactly what it
   would observe alone. *)
From Coq Require Import Permutation.
From PV Require Import Lib.Base Model.Pool.

(* copying a map into an empty one reproduces it only if its keys are distinct *)
Definition canon (m : smap) : Prop := NoDup (map fst m).

Lemma mset_fresh k v m : ~ In k (map fst m) -> mset k v m = m ++ [(k, v)].
Proof.
  induction m as [|[k' v'] m IH]; intros H; cbn [mset app]; [reflexivity|].
  destruct (N.eqb_spec k k') as [->|Hne]; [exfalso; apply H; left; reflexivity|].
  rewrite IH by (intros Hin; apply H; right; exact Hin). reflexivity.
Qed.

Lemma mset_keys k v m x : In x (map fst (mset k v m)) -> k = x \/ In x (map fst m).
Proof.
  induction m as [|[k' v'] m IH]; cbn [mset map fst In]; [tauto|].
  destruct (N.eqb_spec k k') as [->|Hne]; cbn [map fst In]; tauto.
Qed.

Lemma mset_canon k v m : canon m -> canon (mset k v m).
Proof.
  unfold canon. induction m as [|[k' v'] m IH]; cbn [mset map fst]; [repeat constructor; intros []|].
  intros [Hn Hm]%NoDup_cons_iff. destruct (N.eqb_spec k k') as [->|Hne]; cbn [map fst]; constructor; auto.
  intros [<-|Hin]%mset_keys; [congruence | contradiction].
Qed.

Lemma copy_into_app src : forall dst, NoDup (map fst (dst ++ src)) -> copy_into src dst = dst ++ src.
Proof.
  unfold copy_into. induction src as [|[k v] src IH]; intros dst H; cbn [fold_left fst snd].
  - symmetry. apply app_nil_r.
  - rewrite mset_fresh, IH, <- app_assoc; [reflexivity | rewrite <- app_assoc; exact H |].
    rewrite map_app in H. apply NoDup_remove_2 in H. intros Hin. apply H, in_or_app. left. exact Hin.
Qed.

Lemma NoDup_app_iff {A} (l l' : list A) :
  NoDup (l ++ l') <-> NoDup l /\ NoDup l' /\ forall a, In a l -> ~ In a l'.
Proof.
  induction l as [|x l IH]; cbn [app].
  - split; [intros H; repeat split; [constructor | exact H | intros a []] | intros (_ & H & _); exact H].
  - rewrite !NoDup_cons_iff, in_app_iff. cbn [In]. firstorder congruence.
Qed.

Lemma remove_nth_perm {A} i (l : list A) :
  Permutation (match nth_error l i with Some a => [a] | None => [] end ++ remove_nth i l) l.
Proof.
  revert i. induction l as [|x l IH]; intros [|i]; cbn [nth_error remove_nth app]; try reflexivity.
  specialize (IH i). destruct (nth_error l i); cbn [app] in *.
  - rewrite perm_swap. apply perm_skip. exact IH.
  - apply perm_skip. exact IH.
Qed.

Lemma upd_same {A} (f : nat -> A) a x : upd f a x a = x.
Proof. unfold upd. rewrite Nat.eqb_refl. reflexivity. Qed.

Lemma upd_other {A} (f : nat -> A) a x b : b <> a -> upd f a x b = f b.
Proof. unfold upd. destruct (Nat.eqb_spec b a); [contradiction | reflexivity]. Qed.

Lemma map_upd {A} (f : nat -> A) a x l : ~ In a l -> map (upd f a x) l = map f l.
Proof. intros H. apply map_ext_in. intros b Hb. apply upd_other. intros ->. exact (H Hb). Qed.

Definition held (w : world) (t : tid) : list addr :=
  match threads w t with Some th => cur th :: saved th | None => [] end.

(* every address in use is below [next] and in one place only: once in the pool or once in the
   hands of one parser *)
Record Inv (w : world) : Prop := mkInv {
  I_held_lt : forall t a, In a (held w t) -> a < next w;
  I_pool_lt : forall a, In a (pool w) -> a < next w;
  I_held_nodup : forall t, NoDup (held w t);
  I_pool_nodup : NoDup (pool w);
  I_sep : forall t a, In a (held w t) -> ~ In a (pool w);
  I_disj : forall t t' a, In a (held w t) -> In a (held w t') -> t = t';
  I_empty : forall a, In a (pool w) -> heap w a = [];
  I_canon : forall a, canon (heap w a)
}.

Lemma inv_init : Inv init.
Proof. constructor; try contradiction; constructor. Qed.

(* the addresses a step may hand out: the pooled ones and the next k fresh ones *)
Definition free (w : world) (k : nat) : list addr := seq (next w) k ++ pool w.

Lemma free_not_held w k t a : Inv w -> In a (free w k) -> ~ In a (held w t).
Proof.
  intros Hi [Hs%in_seq|Hpo]%in_app_iff Ha; [apply (I_held_lt _ Hi) in Ha; lia | eapply I_sep; eassumption].
Qed.

Lemma view_ext w w' t :
  threads w' t = threads w t -> (forall x, In x (held w t) -> heap w' x = heap w x) -> view w' t = view w t.
Proof.
  unfold view, held. intros ->. destruct (threads w t) as [th|]; [|reflexivity].
  intros H. f_equal. f_equal; [apply H; left; reflexivity|].
  apply map_ext_in. intros x Hx. apply H. right. exact Hx.
Qed.

(* what t holds together with what is free: all distinct, all below the new [next], none in another parser's hands *)
Lemma held_free w t k l : Inv w -> Permutation l (held w t ++ free w k) ->
  NoDup l /\ forall a, In a l -> a < k + next w /\ forall t', In a (held w t') -> t' = t.
Proof.
  intros Hi Hp. split.
  - rewrite Hp. unfold free. rewrite !NoDup_app_iff. repeat split; try apply Hi; try apply seq_NoDup.
    + intros a Ha%in_seq Hpo%(I_pool_lt _ Hi). lia.
    + intros a Ha Hf. exact (free_not_held _ _ _ _ Hi Hf Ha).
  - intros a Ha. rewrite Hp in Ha. apply in_app_iff in Ha as [Ha|Hf].
    + split; [apply (I_held_lt _ Hi) in Ha; lia | intros t' Ha'; exact (I_disj _ Hi _ _ _ Ha' Ha)].
    + split; [|intros t' Ha'; destruct (free_not_held _ _ _ _ Hi Hf Ha')].
      apply in_app_iff in Hf as [Hs%in_seq|Hpo%(I_pool_lt _ Hi)]; lia.
Qed.

(* A change made by parser t, described up to order: what t and the pool hold afterwards is what
   they held before and k fresh addresses, less some that were dropped (junk); every map is left as
   it was (and is then not new in the pool), or is one that t holds afterwards, or is empty and
   pooled.  Then every clause about another parser follows from the old invariant, and no other
   parser notices. *)
Lemma frame w w' t junk k :
  Inv w ->
  (forall t', t' <> t -> threads w' t' = threads w t') ->
  next w' = k + next w ->
  Permutation (junk ++ held w' t ++ pool w') (held w t ++ free w k) ->
  (forall x, heap w' x = heap w x /\ (In x (pool w') -> In x (pool w)) \/
             In x (held w' t) /\ canon (heap w' x) \/
             In x (pool w') /\ heap w' x = []) ->
  Inv w' /\ forall t', t' <> t -> view w' t' = view w t'.
Proof.
  intros Hi Hthr Hn Hp Hm. destruct (held_free w t k _ Hi Hp) as [Hnd Hnew].
  apply NoDup_app_iff in Hnd as (_ & (Hnh & Hnp & Hsep)%NoDup_app_iff & _).
  assert (Hmine : forall a, In a (held w' t) \/ In a (pool w') -> a < next w' /\ forall t', In a (held w t') -> t' = t).
  { intros a Ha%in_or_app. rewrite Hn. apply Hnew, in_or_app. right. exact Ha. }
  assert (Hheld : forall t', t' = t \/ t' <> t /\ held w' t' = held w t').
  { intros t'. destruct (Nat.eq_dec t' t) as [Ht'|Ht']; [left; exact Ht' | right].
    unfold held. rewrite Hthr by exact Ht'. auto. }
  split.
  - constructor.
    + intros t'. destruct (Hheld t') as [->|[_ ->]]; intros a Ha; [apply Hmine; auto|].
      apply (I_held_lt _ Hi) in Ha. lia.
    + intros a Ha. apply Hmine. auto.
    + intros t'. destruct (Hheld t') as [->|[_ ->]]; [exact Hnh | apply Hi].
    + exact Hnp.
    + intros t'. destruct (Hheld t') as [->|[Ht' ->]]; [exact Hsep|].
      intros a Ha Hpo. apply Ht', (Hmine a); auto.
    + intros t1 t2. destruct (Hheld t1) as [->|[_ ->]]; destruct (Hheld t2) as [->|[_ ->]]; intros a Ha1 Ha2.
      * reflexivity.
      * symmetry. apply (Hmine a); auto.
      * apply (Hmine a); auto.
      * exact (I_disj _ Hi _ _ _ Ha1 Ha2).
    + intros a Ha. destruct (Hm a) as [[-> Hpo]|[[Hh _]|[_ E]]]; [apply Hi, Hpo, Ha | destruct (Hsep a Hh Ha) | exact E].
    + intros a. destruct (Hm a) as [[-> _]|[[_ C]|[_ ->]]]; [apply Hi | exact C | constructor].
  - intros t' Ht'. apply view_ext; [apply Hthr; exact Ht'|].
    intros x Hx. destruct (Hm x) as [[E _]|[[Hin _]|[Hin _]]]; [exact E | ..]; destruct Ht'; apply (Hmine x); auto.
Qed.

(* what cloneState gets from the pool, as [step] computes it: a pooled map, or a new one when the
   pool's choice misses *)
Definition alloc (w : world) (pick : option nat) : addr * list addr * addr * (addr -> smap) :=
  match pick with
  | Some i =>
      match nth_error (pool w) i with
      | Some a => (a, remove_nth i (pool w), next w, heap w)
      | None => (next w, pool w, S (next w), upd (heap w) (next w) [])
      end
  | None => (next w, pool w, S (next w), upd (heap w) (next w) [])
  end.

(* a is new to every parser and its map is empty; it and the remaining pool P are the free addresses, k of them fresh;
   no other map has changed *)
Definition allocated (w : world) '(a, P, n, h) : Prop :=
  exists k, n = k + next w /\ Permutation (a :: P) (free w k) /\ (forall t, ~ In a (held w t)) /\
            incl P (pool w) /\ h a = [] /\ forall x, x <> a -> h x = heap w x.

Lemma alloc_spec w pick : Inv w -> allocated w (alloc w pick).
Proof.
  intros Hi.
  assert (Fresh : allocated w (next w, pool w, S (next w), upd (heap w) (next w) [])).
  { exists 1. repeat split; [reflexivity | | apply incl_refl | apply upd_same | intros x Hx; apply upd_other; exact Hx].
    intros t Hin%(I_held_lt _ Hi). lia. }
  unfold alloc. destruct pick as [i|]; [|exact Fresh].
  pose proof (remove_nth_perm i (pool w)) as Hp.
  destruct (nth_error (pool w) i) as [a|]; [|exact Fresh].
  assert (Hin : In a (pool w)) by (rewrite <- Hp; left; reflexivity).
  exists 0. repeat split; [exact Hp | | | apply (I_empty _ Hi), Hin].
  - intros t Ht. exact (I_sep _ Hi _ _ Ht Hin).
  - intros x Hx. rewrite <- Hp. right. exact Hx.
Qed.

(* opens a case of [step_frame]: the hypotheses of [frame], with the new thread record looked up
   and the lists computed; what is left is the permutation, unless its two sides have become equal,
   and the condition on the maps *)
Tactic Notation "framed" constr(Hi) constr(Et) uconstr(junk) constr(k) :=
  eapply (frame _ _ _ junk k Hi); unfold held, free; cbn [threads pool next heap];
  rewrite ?upd_same, ?Et; cbn [cur saved seq app]; try reflexivity; try apply upd_other.

Lemma step_frame w t o : Inv w ->
  Inv (step w (t, o)) /\ forall t', t' <> t -> view (step w (t, o)) t' = view w t'.
Proof.
  intros Hi.
  assert (Idle : Inv w /\ forall t', t' <> t -> view w t' = view w t') by (split; [exact Hi | reflexivity]).
  unfold step. destruct o as [ | k v | pick | | | i].
  (* the pool drops an item whether or not t is a parser *)
  6:{ eapply (frame _ _ t _ 0 Hi); try reflexivity.
      - rewrite Permutation_app_swap_app. apply Permutation_app_head, remove_nth_perm.
      - left. split; [reflexivity|]. intros Hx. rewrite <- (remove_nth_perm i). apply in_or_app. right. exact Hx. }
  all: destruct (threads w t) as [th|] eqn:Et; try exact Idle.
  - framed Hi Et [] 1. intros x. destruct (Nat.eq_dec x (next w)) as [->|Hx].
    + right. left. split; [left; reflexivity | rewrite upd_same; constructor].
    + left. split; [apply upd_other; exact Hx | auto].
  - framed Hi Et [] 0. intros x. destruct (Nat.eq_dec x (cur th)) as [->|Hx].
    + right. left. split; [left; reflexivity | rewrite upd_same; apply mset_canon, Hi].
    + left. split; [apply upd_other; exact Hx | auto].
  - fold (alloc w pick). pose proof (alloc_spec w pick Hi) as Ha.
    destruct (alloc w pick) as [[[a P] n] h]. destruct Ha as (k & -> & Hp & Hno & HP & Ha & Hh).
    specialize (Hno t). unfold held in Hno. rewrite Et in Hno. apply not_in_cons in Hno as [Hc _].
    framed Hi Et [] k.
    + apply perm_skip. rewrite <- Hp. apply Permutation_middle.
    + intros x. destruct (Nat.eq_dec x a) as [->|Hx].
      * right. left. split; [right; left; reflexivity|].
        rewrite upd_same, Ha, Hh, (copy_into_app _ []) by (auto || apply Hi). apply Hi.
      * left. split; [rewrite upd_other, Hh by exact Hx; reflexivity | apply HP].
  - destruct (saved th) as [|a rest] eqn:Es; [exact Idle|].
    framed Hi Et [] 0.
    + rewrite Es. symmetry. apply (Permutation_middle (a :: rest)).
    + intros x. destruct (Nat.eq_dec x (cur th)) as [->|Hx].
      * right. right. split; [left; reflexivity | apply upd_same].
      * left. split; [apply upd_other; exact Hx | intros [Hc|Hpo]; [congruence | exact Hpo]].
  - destruct (saved th) as [|a rest] eqn:Es; [exact Idle|].
    framed Hi Et [a] 0; [rewrite Es; apply perm_swap | auto].
Qed.

(* one step of the shared world is one step of the specification on the view of the parser that
   takes it, and no step on every other view *)
Lemma step_sim w t o t' : Inv w ->
  view (step w (t, o)) t' = if Nat.eqb t t' && negb (is_gc o) then sstep (view w t') o else view w t'.
Proof.
  intros Hi. destruct (Nat.eqb_spec t t') as [<-|Hne]; [|apply (step_frame w t o Hi); auto].
  pose proof (I_held_nodup _ Hi t) as Hnd. unfold held in Hnd.
  unfold step, view at 2 3. destruct o as [ | k v | pick | | | i]; [..|reflexivity];
    destruct (threads w t) as [th|] eqn:Et; cbn [andb negb is_gc sstep scur ssaved];
    unfold view at 1; rewrite ?Et; try reflexivity.
  - cbn [threads heap]. rewrite upd_same. rewrite upd_same. reflexivity.
  - apply NoDup_cons_iff in Hnd as [Hc _]. cbn [threads heap]. rewrite Et, upd_same, map_upd by exact Hc. reflexivity.
  - (* clone: the new map holds a copy of the current one whatever the pool handed out *)
    fold (alloc w pick). pose proof (alloc_spec w pick Hi) as Ha.
    destruct (alloc w pick) as [[[a P] n] h]. destruct Ha as (_ & _ & _ & Hno & _ & Ha & Hh).
    specialize (Hno t). unfold held in Hno. rewrite Et in Hno. apply not_in_cons in Hno as [Hc Hs].
    cbn [threads heap]. rewrite upd_same. cbn [cur saved map].
    rewrite upd_same, map_upd, upd_other, Ha, Hh, (copy_into_app _ []) by (auto || apply Hi).
    f_equal. f_equal. f_equal. apply map_ext_in. intros x Hx. apply Hh. intros ->. exact (Hs Hx).
  - destruct (saved th) as [|a rest] eqn:Es; cbn [map]; [rewrite Et, Es; reflexivity|].
    apply NoDup_cons_iff in Hnd as [Hc _].
    cbn [threads heap]. rewrite upd_same.
    rewrite upd_other, map_upd; [reflexivity | |]; intros Hin; apply Hc; [right; exact Hin | left; exact Hin].
  - destruct (saved th) as [|a rest] eqn:Es; cbn [map]; [rewrite Et, Es; reflexivity|].
    cbn [threads heap]. rewrite upd_same. reflexivity.
Qed.

Lemma run_inv h : forall w, Inv w -> Inv (run h w).
Proof. induction h as [|[t o] h IH]; intros w Hi; [exact Hi | apply IH, step_frame, Hi]. Qed.

Lemma view_run h t : forall w, Inv w -> view (run h w) t = fold_left sstep (mine t h) (view w t).
Proof.
  induction h as [|[t0 o] h IH]; intros w Hi; [reflexivity|].
  cbn [run fold_left]. rewrite IH, step_sim by (try apply step_frame; exact Hi).
  unfold mine. cbn [filter fst snd]. destruct (Nat.eqb t0 t && negb (is_gc o)); reflexivity.
Qed.

Theorem isolation h t : view (run h init) t = srun (mine t h).
Proof. apply view_run, inv_init. Qed.
