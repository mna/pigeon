(* Witness for C08: indirect left recursion entered through a rule that is not the leader.
     Start <- Sum ; Sum <- Lhs "+" P / P ; Lhs <- Sum ; P <- "1"
   builder.PrepareGrammar makes Lhs the leader (leader/leftRecursive flags as emitted by the real tool,
   checked by the correspondence run on corpus/kf_leader_not_entry.txt). *)
From PV Require Import Lib.Base Syntax.RGrammar Syntax.Code Model.Runtime Spec.RefParse.
From Coq Require Import String.

Definition nm (s : string) : bytes := bytes_of_string s.

Definition u0 : ulib := mkUlib (fun r => r) (fun r => r) (fun _ => false) (fun _ _ => false).
Definition env0 : codeenv :=
  mkEnv (fun _ => []) (fun _ x => CbRet VNil None (c_state x) (c_gstore x))
        (fun _ x => CbRet true None (c_state x) (c_gstore x)) (fun _ x => CbRet tt None (c_state x) (c_gstore x)).

Definition lit1 (n : N) (ch : Z) (w : string) : expr := ELit n [ch] false (nm w).

Definition g_entry (leader_is_sum : bool) : grammar :=
  [ mkRule (nm "Start") [] (ERef 1%N (nm "Sum")) false false;
    mkRule (nm "Sum") [] (EAlt 2%N [ESeq 3%N [ERef 4%N (nm "Lhs"); lit1 5%N 43%Z """+"""; ERef 6%N (nm "P")]; ERef 7%N (nm "P")]) leader_is_sum true;
    mkRule (nm "Lhs") [] (ERef 8%N (nm "Sum")) (negb leader_is_sum) true;
    mkRule (nm "P") [] (lit1 9%N 49%Z """1""") false false ].

Definition cfg_entry (leader_is_sum : bool) : cfg :=
  mkCfg faithful u0 (mkTmpl false false true false) (mkOpts false false false true false 0%N [] [] [])
        [49; 43; 49]%N (g_entry leader_is_sum) env0.

Definition value_of (o : outcome) : option val := match o with Returned v _ _ => Some v | _ => None end.
Definition rvalue_of (o : routcome) : option val := match o with RReturned v _ _ => Some v | _ => None end.

Definition whole : val := VList [VBytes [49%N]; VBytes [43%N]; VBytes [49%N]].
