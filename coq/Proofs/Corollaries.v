(* Corollaries of the invariant in the form the property theorems quote them, and two facts about the end of Parse
   quoted beside them: a panic is contained, the error list is deduplicated. *)
From PV Require Import Lib.Base Syntax.RGrammar Model.PState Model.Runtime
  Proofs.ReadProofs Proofs.Inv Proofs.InvStep.

(* for every expression, every template variant, Memoize on or off, left recursion or not *)
Lemma inv_Ok c fuel e s r s' : I c s -> parseExprWrap c fuel e s = Ok r s' -> Post c s (snd r) s'.
Proof. intros HI E. pose proof (parseExprWrap_inv c fuel e s HI) as H. rewrite E in H. destruct r. exact H. Qed.

Lemma fail_consumes_nothing c fuel e s v s' :
  I c s -> parseExprWrap c fuel e s = Ok (v, false) s' ->
  cur_off s' = cur_off s /\ (has_state (cT c) = true -> st s' = st s).
Proof. intros HI E. apply (inv_Ok c fuel e s _ s' HI E). reflexivity. Qed.

Lemma success_moves_forward c fuel e s v b s' :
  I c s -> parseExprWrap c fuel e s = Ok (v, b) s' -> cur_off s <= cur_off s'.
Proof. intros HI E. apply (inv_Ok c fuel e s _ s' HI E). Qed.

Lemma savepoint_coherent c fuel e s r s' :
  I c s -> parseExprWrap c fuel e s = Ok r s' -> sp_ok (cData c) (pt s').
Proof. intros HI E. apply (inv_Ok c fuel e s r s' HI E). Qed.

Lemma stacks_balanced c fuel e s r s' :
  I c s -> parseExprWrap c fuel e s = Ok r s' ->
  tl (vstack s') = tl (vstack s) /\ length (vstack s') = length (vstack s) /\
  rstack s' = rstack s /\ rcvstack s' = rcvstack s /\ maxFailInvert s' = maxFailInvert s.
Proof. intros HI E. destruct (inv_Ok c fuel e s r s' HI E) as (_ & _ & [] & _). auto. Qed.

Lemma errors_only_grow c fuel e s :
  I c s ->
  match parseExprWrap c fuel e s with
  | Ok _ s' | Panic _ s' => exists l, errs s' = errs s ++ l
  | OutOfFuel => True
  end.
Proof.
  intros HI. pose proof (parseExprWrap_inv c fuel e s HI) as Hs.
  destruct (parseExprWrap c fuel e s) as [[v b] s'|pv s'|]; [apply Hs | apply Hs | exact Logic.I].
Qed.

Lemma budget_respected c fuel e s :
  I c s -> o_maxexpr (cO c) <> 0%N ->
  match parseExprWrap c fuel e s with
  | Ok _ s' => (exprCnt s' <= o_maxexpr (cO c))%N
  | Panic _ s' => (exprCnt s' <= o_maxexpr (cO c) + 1)%N
  | OutOfFuel => True
  end.
Proof.
  intros HI Hn. pose proof (parseExprWrap_inv c fuel e s HI) as Hs.
  destruct (parseExprWrap c fuel e s) as [[v b] s'|pv s'|]; [| |exact Logic.I].
  - destruct (I_cnt c s' (proj1 Hs)); [contradiction|assumption].
  - destruct (proj2 Hs); [contradiction|assumption].
Qed.

Lemma growth_terminates c fuel n r s :
  I c s ->
  (forall s', Step c s s' -> parseRule (parseExprWrap c fuel) r s' <> OutOfFuel) ->
  length (cData c) + 2 <= n ->
  parseRuleRecursiveLeader c (parseExprWrap c fuel) n r s <> OutOfFuel.
Proof. apply leader_terminates, parseExprWrap_inv. Qed.

Definition final_state (o : outcome) : option pstate :=
  match o with Returned _ _ s | Panicked _ s => Some s | Diverged => None end.

Lemma parse_budget c fuel s' :
  o_maxexpr (cO c) <> 0%N -> final_state (parse c fuel) = Some s' ->
  (exprCnt s' <= o_maxexpr (cO c) + 1)%N.
Proof.
  intros Hn. unfold parse.
  destruct (cG c) as [|r0 G0]; [intros [= <-]; apply N.le_0_l|].
  destruct (entry_name c) as [en|]; [|discriminate].
  destruct (find_rule en (r0 :: G0)) as [r|]; [|intros [= <-]; apply N.le_0_l].
  pose proof (parseRuleWrap_inv c fuel fuel r _ (I_init c)) as Hs.
  destruct (parseRuleWrap c (parseExprWrap c fuel) fuel r (read c (init_state c))) as [[v b] s2|pv s2|]; [| |discriminate].
  - destruct (I_cnt c s2 (proj1 Hs)); [contradiction|].
    destruct b; [|destruct (errs s2)]; intros [= <-]; cbn; lia.
  - destruct (proj2 Hs); [contradiction|]. destruct (o_recover (cO c)); intros [= <-]; cbn; lia.
Qed.

(* a panic never escapes Parse when Recover is on: it is recorded as one more error, the last
   before de-duplication, and the value is nil *)
Lemma parse_panic_contained c fuel r en pv s' :
  entry_name c = Some en -> find_rule en (cG c) = Some r ->
  parseRuleWrap c (parseExprWrap c fuel) fuel r (read c (init_state c)) = Panic pv s' ->
  parse c fuel =
    if o_recover (cO c) then Returned VNil (dedupe (errs s' ++ [mkPerr pv (sp_pos (pt s')) (err_prefix c (sp_pos (pt s')) s') []])) (addErr c pv s')
    else Panicked pv s'.
Proof.
  intros He Hf Hp. unfold parse. destruct (cG c); [discriminate Hf|]. rewrite He, Hf, Hp. reflexivity.
Qed.

Lemma mem_bytes_In x l : mem_bytes x l = true <-> In x l.
Proof. apply mem_bytes_iff. Qed.

Lemma dedupe_go_sub seen l e : In e (dedupe_go seen l) -> In e l /\ mem_bytes (perr_string e) seen = false.
Proof.
  revert seen. induction l as [|x l IH]; intros seen; cbn; [contradiction|].
  destruct (mem_bytes (perr_string x) seen) eqn:Hm.
  - intros [A B]%IH. auto.
  - intros [<-|[A [_ B]%orb_false_iff]%IH]; auto.
Qed.

Lemma dedupe_go_nodup seen l : NoDup (map perr_string (dedupe_go seen l)).
Proof.
  revert seen. induction l as [|x l IH]; intros seen; cbn; [constructor|].
  destruct (mem_bytes (perr_string x) seen); [apply IH|]. constructor; [|apply IH].
  intros (e & He & [_ Hs]%dedupe_go_sub)%in_map_iff. cbn in Hs. rewrite He, bytes_eqb_refl in Hs. discriminate.
Qed.

Lemma dedupe_go_complete seen l e : In e l ->
  mem_bytes (perr_string e) seen = true \/ In (perr_string e) (map perr_string (dedupe_go seen l)).
Proof.
  revert seen. induction l as [|x l IH]; intros seen; [contradiction|]. cbn.
  destruct (mem_bytes (perr_string x) seen) eqn:Hm; intros [<-|Hin]; cbn; auto.
  destruct (IH (perr_string x :: seen) Hin) as [[->%bytes_eqb_eq|Hs]%orb_true_iff|Hs]; auto.
Qed.

Theorem dedupe_spec l :
  NoDup (map perr_string (dedupe l)) /\
  (forall e, In e (dedupe l) -> In e l) /\
  (forall e, In e l -> In (perr_string e) (map perr_string (dedupe l))).
Proof.
  split; [apply dedupe_go_nodup|]. split; intros e Hin.
  - apply (dedupe_go_sub [] l e Hin).
  - destruct (dedupe_go_complete [] l e Hin) as [H|H]; [discriminate | exact H].
Qed.

Lemma dedupe_keeps_first x l : exists l', dedupe (x :: l) = x :: l'.
Proof. eexists. reflexivity. Qed.
