(* C12: the incremental farthest-failure bookkeeping (failAt) computes the batch
   definition over the list of relevant terminal attempts. *)
From PV Require Import Lib.Base Syntax.RGrammar Model.Runtime Spec.RefParse Proofs.Sim.

Local Notation term := (position * bytes * bool)%type.
Definition toff (t : term) : nat := offset (fst (fst t)).
Definition trender (t : term) : bytes := if snd t then b_bang ++ snd (fst t) else snd (fst t).

Lemma far_offset_app ts t : far_offset (ts ++ [t]) = Nat.max (far_offset ts) (toff t).
Proof. unfold far_offset. rewrite fold_left_app. reflexivity. Qed.

Lemma far_offset_ge ts : forall t, In t ts -> toff t <= far_offset ts.
Proof.
  induction ts as [|x ts IH] using rev_ind; intros t Hin; [destruct Hin|].
  rewrite far_offset_app. apply in_app_or in Hin as [Hin|[<-|[]]]; [specialize (IH _ Hin)|]; lia.
Qed.

Definition mf_inv (ts : list term) : Prop :=
  mf_fold ts = (far_pos ts, far_expected ts) /\ offset (far_pos ts) = far_offset ts.

Lemma find_ext (f g : term -> bool) ts : (forall t, In t ts -> f t = g t) -> find f ts = find g ts.
Proof.
  induction ts as [|x ts IH]; intros H; cbn; [reflexivity|].
  rewrite (H x (or_introl eq_refl)). destruct (g x); [reflexivity|]. apply IH. intros; apply H; right; auto.
Qed.

Lemma filter_ext' (f g : term -> bool) ts : (forall t, In t ts -> f t = g t) -> filter f ts = filter g ts.
Proof. apply filter_ext_in. Qed.

Lemma find_snoc (f : term -> bool) ts t :
  find f (ts ++ [t]) = match find f ts with Some u => Some u | None => if f t then Some t else None end.
Proof. induction ts as [|x ts IH]; cbn; [reflexivity|]. rewrite IH. destruct (f x); reflexivity. Qed.

Lemma none_satisfies (f : term -> bool) ts : (forall t, In t ts -> f t = false) -> find f ts = None /\ filter f ts = [].
Proof.
  intros Hf. rewrite (find_ext f (fun _ => false) ts Hf), (filter_ext' f (fun _ => false) ts Hf).
  clear Hf. induction ts as [|x ts IH]; [split; reflexivity | exact IH].
Qed.

Lemma none_beyond k ts : far_offset ts < k ->
  find (fun u : term => (offset (fst (fst u)) =? k) && negb (k =? 0)) ts = None /\
  filter (fun u : term => offset (fst (fst u)) =? k) ts = [].
Proof.
  intros Hk. assert (Hne : forall u, In u ts -> (toff u =? k) = false).
  { intros u Hu. apply Nat.eqb_neq. pose proof (far_offset_ge ts u Hu). lia. }
  split; apply none_satisfies; intros u Hu; unfold toff in Hne; rewrite (Hne u Hu); reflexivity.
Qed.

(* one more attempt t: the batch report of ts ++ [t] is one step of the bookkeeping from the batch report of ts.
   The report keeps the first attempt at the farthest offset, except that offset 0 keeps the initial 1:1. *)
Lemma far_step ts t : offset (far_pos ts) = far_offset ts ->
  (far_pos (ts ++ [t]), far_expected (ts ++ [t])) = mf_step (far_pos ts, far_expected ts) t /\
  offset (far_pos (ts ++ [t])) = far_offset (ts ++ [t]).
Proof.
  unfold far_pos, far_expected. rewrite far_offset_app, find_snoc, filter_app, map_app.
  destruct t as [[pos want] inv]. cbn [mf_step filter]. change (offset pos) with (toff (pos, want, inv)).
  fold (toff (pos, want, inv)). set (t := (pos, want, inv)). set (far := far_offset ts). intros Hfar. rewrite Hfar.
  destruct (Nat.ltb_spec (toff t) far) as [Hlt|Hge]; [|destruct (Nat.ltb_spec far (toff t)) as [Hgt|Hle]].
  - (* earlier than the farthest failure: ignored *)
    rewrite Nat.max_l, (proj2 (Nat.eqb_neq (toff t) far)), app_nil_r by lia.
    destruct (find _ ts); split; trivial.
  - (* strictly farther: the report restarts from t *)
    rewrite Nat.max_r by lia.
    destruct (none_beyond (toff t) ts Hgt) as [-> ->].
    rewrite Nat.eqb_refl, (proj2 (Nat.eqb_neq (toff t) 0)) by lia. split; reflexivity.
  - (* at the farthest offset: one more expected terminal *)
    rewrite Nat.max_l by lia. replace (toff t) with far by lia. rewrite Nat.eqb_refl.
    destruct (find _ ts); [split; trivial|].
    (* no attempt of ts is at far: far = 0 *)
    rewrite <- Hfar. split; reflexivity.
Qed.

Theorem mf_fold_batch : forall ts, mf_inv ts.
Proof.
  induction ts as [|t ts [IH1 IH2]] using rev_ind; [split; reflexivity|].
  destruct (far_step ts t IH2) as [E1 E2]. split; [|exact E2].
  unfold mf_fold in *. rewrite fold_left_app, IH1, E1. reflexivity.
Qed.

Corollary mf_fold_far ts : mf_fold ts = (far_pos ts, far_expected ts).
Proof. apply mf_fold_batch. Qed.
