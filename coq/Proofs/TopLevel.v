(* Parse (the model of the generated parser's entry point) against RefParse.rparse. *)
From PV Require Import Lib.Base Syntax.RGrammar Model.PState Spec.Pos Model.Runtime Spec.Ref Spec.RefParse
  Proofs.PosProofs Proofs.Inv Proofs.InvStep Proofs.Sim Proofs.SimStep Proofs.SimFinal Proofs.FailProofs.

Section Top.
  Variable c : cfg.
  Let d := cData c.
  Hypothesis Hst : state_ok c.
  Hypothesis Hmemo : o_memoize (cO c) = false.
  Hypothesis HG : G_wf c.
  Hypothesis Hstale : stale_ok c.
  Hypothesis Hnolr : t_leftrec (cT c) = false.

  (* what a caller (and the harness) can observe of a finished parse *)
  Definition obs_equiv (o : outcome) (r : routcome) : Prop :=
    match o, r with
    | Returned v es s, RReturned v' es' m =>
        v = v' /\ es = es' /\ gs s = u_gs m /\ exprCnt s = u_cnt m /\
        Forall2 ev_eqv (trace s) (blocks_of_log (u_log m))
    | Panicked pv s, RPanicked pv' m =>
        pv = pv' /\ gs s = u_gs m /\ exprCnt s = u_cnt m /\
        Forall2 ev_eqv (trace s) (blocks_of_log (u_log m))
    | Diverged, RDiverged => True
    | _, _ => False
    end.

  Lemma Sim_init r :
    Sim c (pushV (set_rstack [r] (read c (init_state c)))) [] (mkSig 0 (o_initstate (cO c))) (land c None 0 mu0) []
        (Some r) false.
  Proof.
    (* the first read does not look at the variable stack, so the scope may be pushed before it *)
    replace (pushV (set_rstack [r] (read c (init_state c)))) with (set_rstack [r] (read c (pushV (init_state c))))
      by (unfold read; destruct (_ && _); [destruct (o_allowinvalid (cO c))|]; reflexivity).
    apply (Sim_rule (R := None)), (Sim_land c (g := mkSig 0 _)).
    constructor; try reflexivity.
    - apply reach_init.
    - apply (adv_off (save0 d)).
    - constructor.
    - exists []. reflexivity.
  Qed.

  Lemma errs_init_single msg :
    errs (addErr c msg (init_state c)) = [ref_perr c msg pos0 None []].
  Proof. reflexivity. Qed.

  Theorem parse_refines_rparse : forall fuel, obs_equiv (parse c fuel) (rparse c fuel).
  Proof.
    intros fuel. unfold parse, rparse, entry_name. unrd.
    destruct (cG c) as [|r0 G0] eqn:EG.
    { repeat split. constructor. }
    rewrite <- EG.
    destruct (entry_of (cO c) (cG c)) as [en|]; [|exact Logic.I].
    destruct (find_rule en (cG c)) as [r|] eqn:Hf.
    2: { repeat split. constructor. }
    destruct (proj1 (Forall_forall _ _) HG r (find_rule_In _ _ _ Hf)) as [Hwf Hlr].
    rewrite (parseRuleWrap_plain c _ Hmemo fuel r _ Hlr).
    unfold parseRule, bind, modify, ret.
    replace (rstack (read c (init_state c))) with (@nil rule)
      by (unfold read; destruct (_ && _); [destruct (o_allowinvalid (cO c))|]; reflexivity).
    set (s1 := pushV (set_rstack [r] (read c (init_state c)))).
    assert (HI1 : I c s1) by exact (I_same c (read c (init_state c)) s1 eq_refl eq_refl eq_refl (I_init c)).
    destruct (call_view c _ s1 _ _ _ _ _ _ _
                (parse_sim c Hst Hmemo HG Hstale Hnolr fuel _ _ _ _ _ _ _ _ Hwf (Forall_nil _) HI1 (Sim_init r))
                (parseExprWrap_inv c fuel (r_expr r) s1 HI1))
      as [v s2 g' sc' m' S2 _ _ _ _|s2 sc' m' S2 _ F _|pv s2 m' pos R' [P1 P2 P3 P4 P5 P6]|].
    - rewrite <- (S_errs S2). repeat split; apply S2.
    - cbn [errs set_rstack popV set_vstack]. rewrite <- (S_errs S2).
      destruct (errs s2) as [|e0 es0] eqn:Ee; (split; [reflexivity|]); (split; [|repeat split; apply S2]).
      + pose proof (S_mf S2) as Hmf. rewrite mf_fold_far in Hmf. injection Hmf as Hp He.
        unfold no_match_error, addErrAt.
        cbn [errs set_errs rstack maxFailPos maxFailExpected set_rstack popV set_vstack].
        rewrite Ee, (F_rstack _ _ F), Hp, He. reflexivity.
      + exact (f_equal dedupe Ee).
    - destruct (o_recover (cO c)); cbn; repeat split; trivial.
      rewrite P3, err_prefix_ref, P6, P1. reflexivity.
    - exact Logic.I.
  Qed.
End Top.
