(* C15: the Basic-Latin lookup table against the general matching procedure. *)
From PV Require Import Lib.Base Syntax.RGrammar Model.PState Model.Runtime Model.Lower.
From Coq Require Import ZifyBool.
Local Open Scope Z_scope.

Lemma upd_length i t : length (upd i t) = length t.
Proof. revert i; induction t as [|b t IH]; intros [|i]; cbn; auto. Qed.

Lemma upd_nth i t j : nth j (upd i t) false = (Nat.eqb j i && Nat.ltb i (length t)) || nth j t false.
Proof.
  revert i j; induction t as [|b t IH].
  - destruct i, j; cbn; rewrite ?andb_false_r; reflexivity.
  - destruct i as [|i]; destruct j as [|j]; cbn; auto.
    rewrite IH. reflexivity.
Qed.

Lemma set_tab_length t x : length (set_tab t x) = length t.
Proof. unfold set_tab. destruct (_ && _); [apply upd_length | reflexivity]. Qed.

Lemma ascii_runes_spec r : In r ascii_runes <-> 0 <= r < 128.
Proof.
  unfold ascii_runes. rewrite in_map_iff. split.
  - intros [k [<- Hk]]. apply in_seq in Hk. lia.
  - exists (Z.to_nat r). rewrite in_seq. lia.
Qed.

Lemma in_ranges_pairs r rs : in_ranges r rs = existsb (fun p => (fst p <=? r) && (r <=? snd p)) (range_pairs rs).
Proof. induction rs as [|lo|lo hi rs IH] using list_ind2; cbn; auto. rewrite IH. reflexivity. Qed.

(* Every loop of [basic_latin] only ever switches entries of the table on.
   [adds P t t']: a full table t becomes the full table t' by switching on the entries that satisfy P. *)
Definition adds (P : rune -> bool) (t t' : list bool) : Prop :=
  length t = 128%nat ->
  length t' = 128%nat /\ forall r, 0 <= r < 128 -> nth (Z.to_nat r) t' false = P r || nth (Z.to_nat r) t false.

Lemma adds_ext P Q t t' : (forall r, 0 <= r < 128 -> P r = Q r) -> adds P t t' -> adds Q t t'.
Proof.
  intros HPQ H Hl. destruct (H Hl) as [Hl' E]. split; [exact Hl'|].
  intros r Hr. rewrite <- HPQ by exact Hr. apply E, Hr.
Qed.

Lemma adds_none P t : (forall r, 0 <= r < 128 -> P r = false) -> adds P t t.
Proof. intros HP Hl. split; [exact Hl|]. intros r Hr. rewrite HP by exact Hr. reflexivity. Qed.

(* the last step comes first: that is the one a goal about fold_left or basic_latin shows *)
Lemma adds_trans P Q t t' t'' : adds Q t' t'' -> adds P t t' -> adds (fun r => P r || Q r) t t''.
Proof.
  intros H' H Hl. destruct (H Hl) as [Hl' E]. destruct (H' Hl') as [Hl'' E']. split; [exact Hl''|].
  intros r Hr. rewrite E', E by exact Hr. destruct (P r), (Q r); reflexivity.
Qed.

Lemma adds_fold {A} (f : list bool -> A -> list bool) (p : A -> rune -> bool) :
  (forall x t, adds (p x) t (f t x)) ->
  forall l t, adds (fun r => existsb (fun x => p x r) l) t (fold_left f l t).
Proof.
  intros Hf. induction l as [|x l IH]; intros t.
  - apply adds_none. reflexivity.
  - eapply adds_trans; [apply IH | apply Hf].
Qed.

Lemma adds_set x t : adds (fun r => r =? x) t (set_tab t x).
Proof.
  intros Hl. split; [rewrite set_tab_length; exact Hl|].
  intros r Hr. unfold set_tab.
  destruct ((0 <=? x) && (x <? 128)) eqn:Hx; [rewrite upd_nth, Hl|]; lia.
Qed.

Section NoFold.
  Variable u : ulib.

  (* the loop stops at 128 whatever hi is: fuel 128 - j suffices *)
  Lemma mark_range_adds fuel : forall t j hi, 128 - j <= Z.of_nat fuel ->
    adds (fun r => (j <=? r) && (r <=? hi)) t (mark_range fuel u false t j hi).
  Proof.
    induction fuel as [|f IH]; intros t j hi Hf; cbn [mark_range].
    - apply adds_none. lia.
    - destruct ((j <? 128) && (j <=? hi)) eqn:E.
      + eapply adds_ext; [|eapply adds_trans; [apply IH; lia | apply adds_set]].
        lia.
      + apply adds_none. lia.
  Qed.

  Lemma mark_one_range_adds (p : rune * rune) t : adds (fun r => (fst p <=? r) && (r <=? snd p)) t (mark_one_range u false t p).
  Proof.
    unfold mark_one_range. destruct (fst p <? 128) eqn:E.
    - eapply adds_ext; [|apply mark_range_adds; lia]. cbn beta. lia.
    - apply adds_none. lia.
  Qed.

  Lemma mark_ranges_adds rs t : adds (fun r => in_ranges r rs) t (mark_ranges u false t rs).
  Proof.
    eapply adds_ext; [|apply adds_fold, mark_one_range_adds].
    symmetry. apply in_ranges_pairs.
  Qed.

  Lemma mark_class_adds cl t : adds (in_class u cl) t (mark_class u t cl).
  Proof.
    eapply adds_ext; [|apply adds_fold with (p := fun x r => in_class u cl x && (r =? x))].
    - intros r Hr. apply eq_true_iff_eq. rewrite existsb_exists. split.
      + intros [x [_ [H E%Z.eqb_eq]%andb_true_iff]]. subst x. exact H.
      + exists r. rewrite ascii_runes_spec, H, Z.eqb_refl. auto.
    - intros x t0. destruct (in_class u cl x); [apply adds_set | apply adds_none; reflexivity].
  Qed.

  Lemma basic_latin_adds chars ranges classes :
    adds (fun r => existsb (Z.eqb r) chars || in_ranges r ranges || existsb (fun cl => in_class u cl r) classes)
         (repeat false 128) (basic_latin u chars ranges classes false).
  Proof.
    eapply adds_trans; [apply adds_fold, mark_class_adds|].
    eapply adds_trans; [apply mark_ranges_adds|].
    apply adds_fold with (p := fun x r => r =? x). intros x t.
    destruct (x <? 128) eqn:E; [apply adds_set | apply adds_none; lia].
  Qed.

  Theorem table_eq_slow_nofold chars ranges classes inv r : 0 <= r < 128 ->
    table_decide (basic_latin u chars ranges classes false) inv r = slow_decide u chars ranges classes false inv r.
  Proof.
    intros Hr. destruct (basic_latin_adds chars ranges classes (repeat_length _ _)) as [_ E].
    unfold table_decide, slow_decide, class_decide. rewrite (E r Hr), nth_repeat, orb_false_r.
    destruct (_ || _), inv; reflexivity.
  Qed.
End NoFold.

Theorem table_agrees_b_spec u chars ranges classes ic inv :
  table_agrees_b u chars ranges classes ic inv = true <->
  forall r, 0 <= r < 128 ->
    table_decide (basic_latin u chars ranges classes ic) inv r = slow_decide u chars ranges classes ic inv r.
Proof.
  unfold table_agrees_b. rewrite forallb_forall. split; intros H r Hr.
  - apply eqb_prop, H, ascii_runes_spec, Hr.
  - apply eqb_true_iff, H, ascii_runes_spec, Hr.
Qed.

Lemma nonascii_same_path c cv chars ranges classes ic inv table s :
  128 <= sp_rn (pt s) ->
  parseCharClassMatcher c cv chars ranges classes ic inv table s =
  (if is_eof s then cls_fail cv (pt s) s
   else if class_decide (cU c) chars ranges classes ic inv (sp_rn (pt s))
        then cls_match c cv (pt s) s else cls_fail cv (pt s) s).
Proof.
  intros H. apply Z.ltb_ge in H. unfold parseCharClassMatcher. rewrite H, andb_false_r. reflexivity.
Qed.
