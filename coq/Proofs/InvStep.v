(* The invariant is kept by every function of the run-time model.  Three ideas carry the proofs:
   - [Step], the transitive part of Post, is a preorder on states satisfying I, and every primitive state change is a
     Step (mostly a [StepEq], one that keeps the offset);
   - a [bracket]: the evaluation of a subexpression stands between two changes of the stacks that undo each other
     and touch nothing else that Post reads, so its Post holds of the states outside the bracket;
   - [rollback]: going back to a savepoint of the entry state, with the state store of the entry state, is a failure
     in the sense of Post whatever happened in between. *)
From PV Require Import Lib.Base Syntax.RGrammar Syntax.Code Model.PState Spec.Pos Model.Runtime
  Proofs.ReadProofs Proofs.Inv.

Section Step.
  Variable c : cfg.
  Variable wrap : expr -> M (val * bool).
  Hypothesis Hwrap : wrap_spec c wrap.

  Definition Step (s s' : pstate) : Prop :=
    I c s' /\ Mono s s' /\ Frame s s' /\ cur_off s <= cur_off s'.

  Definition StepEq (s s' : pstate) : Prop := Step s s' /\ cur_off s' = cur_off s.

  Lemma Post_Step {s b s'} : Post c s b s' -> Step s s'.
  Proof. intros (A & B & C & D & _). exact (conj A (conj B (conj C D))). Qed.

  Lemma Step_refl s : I c s -> Step s s.
  Proof. intros H. exact (conj H (conj (Mono_refl s) (conj (Frame_refl s) (le_n _)))). Qed.

  Lemma Step_trans {a b d} : Step a b -> Step b d -> Step a d.
  Proof.
    intros (_ & B1 & C1 & D1) (A2 & B2 & C2 & D2).
    exact (conj A2 (conj (Mono_trans _ _ _ B1 B2) (conj (Frame_trans _ _ _ C1 C2) (Nat.le_trans _ _ _ D1 D2)))).
  Qed.

  (* the primitives are stated as [I c s -> StepEq s (f s)]; these append such a step to a path *)
  Lemma Step_then {a s s'} : Step a s -> (I c s -> StepEq s s') -> Step a s'.
  Proof. intros HS H. exact (Step_trans HS (proj1 (H (proj1 HS)))). Qed.

  Lemma StepEq_then {a s s'} : StepEq a s -> (I c s -> StepEq s s') -> StepEq a s'.
  Proof. intros [HS Ho] H. destruct (H (proj1 HS)) as [HS' Ho']. exact (conj (Step_trans HS HS') (eq_trans Ho' Ho)). Qed.

  Lemma Post_of_Step {s b s'} :
    Step s s' -> (b = false -> cur_off s' = cur_off s /\ (has_state (cT c) = true -> st s' = st s)) -> Post c s b s'.
  Proof. intros (A & B & C & D) E. exact (conj A (conj B (conj C (conj D E)))). Qed.

  Lemma Post_true {s s'} : Step s s' -> Post c s true s'.
  Proof. intros H. apply (Post_of_Step H). discriminate. Qed.

  Lemma Post_of_StepEq {s s'} b : StepEq s s' -> (has_state (cT c) = true -> st s' = st s) -> Post c s b s'.
  Proof. intros [H Ho] Hst. exact (Post_of_Step H (fun _ => conj Ho Hst)). Qed.

  Lemma Post_refl s b : I c s -> Post c s b s.
  Proof. intros H. exact (Post_of_StepEq b (conj (Step_refl s H) eq_refl) (fun _ => eq_refl)). Qed.

  Lemma Post_false_inv {s s'} : Post c s false s' -> StepEq s s' /\ (has_state (cT c) = true -> st s' = st s).
  Proof. intros H. destruct (proj2 (proj2 (proj2 (proj2 H))) eq_refl) as [Ho Hst]. exact (conj (conj (Post_Step H) Ho) Hst). Qed.

  Lemma Post_trans {a b1 m b2 d} : Post c a b1 m -> Post c m b2 d -> Post c a (b1 || b2) d.
  Proof.
    intros H1 H2. apply (Post_of_Step (Step_trans (Post_Step H1) (Post_Step H2))).
    intros [-> ->]%orb_false_iff. destruct (Post_false_inv H1) as [[_ O1] S1], (Post_false_inv H2) as [[_ O2] S2].
    split; [exact (eq_trans O2 O1) | intros Hh; exact (eq_trans (S2 Hh) (S1 Hh))].
  Qed.

  Lemma Post_then_fail {a b m d} : Post c a b m -> Post c m false d -> Post c a b d.
  Proof. intros H1 H2. rewrite <- (orb_false_r b). exact (Post_trans H1 H2). Qed.

  Lemma Post_then_StepEq {a b s s'} : Post c a b s -> (I c s -> StepEq s s') -> st s' = st s -> Post c a b s'.
  Proof. intros HP H Hst. exact (Post_then_fail HP (Post_of_StepEq false (H (proj1 HP)) (fun _ => Hst))). Qed.

  Lemma PostP_compose {s s1 s2} : Step s s1 -> PostP c s1 s2 -> PostP c s s2.
  Proof. intros (_ & B & _) (M & Hc). exact (conj (Mono_trans _ _ _ B M) Hc). Qed.

  Lemma PostP_of_Step {s s'} : Step s s' -> PostP c s s'.
  Proof. intros ([_ _ [C0|C0]] & HM & _); split; trivial; [left; exact C0 | right; lia]. Qed.

  Lemma PostP_refl s : I c s -> PostP c s s.
  Proof. intros HI. exact (PostP_of_Step (Step_refl s HI)). Qed.

  Lemma res_compose {s s1 r} : Post c s false s1 -> res_spec c s1 r -> res_spec c s r.
  Proof.
    intros H. destruct r as [[v b] s2|pv s2|]; [exact (Post_trans H) | exact (PostP_compose (Post_Step H)) | exact id].
  Qed.

  Lemma I_same s s' :
    pt s' = pt s -> memo s' = memo s -> exprCnt s' = exprCnt s -> I c s -> I c s'.
  Proof using. intros H1 H2 H3 [A B C]. constructor; unfold cnt_ok in *; rewrite ?H1, ?H2, ?H3; auto. Qed.

  Lemma cloneState_facts s :
    let '(x, s') := cloneState c s in
    (has_state (cT c) = true -> x = st s) /\ pt s' = pt s /\ memo s' = memo s /\ exprCnt s' = exprCnt s /\
    errs s' = errs s /\ trace s' = trace s /\ maxFailPos s' = maxFailPos s /\ vstack s' = vstack s /\
    rstack s' = rstack s /\ rcvstack s' = rcvstack s /\ maxFailInvert s' = maxFailInvert s /\ st s' = st s /\ gs s' = gs s.
  Proof using. unfold cloneState. destruct (has_state (cT c)); cbn; repeat split; discriminate. Qed.

  Lemma restoreState_facts x s :
    let s' := restoreState c x s in
    (has_state (cT c) = true -> st s' = x) /\ pt s' = pt s /\ memo s' = memo s /\ exprCnt s' = exprCnt s /\
    errs s' = errs s /\ trace s' = trace s /\ maxFailPos s' = maxFailPos s /\ vstack s' = vstack s /\
    rstack s' = rstack s /\ rcvstack s' = rcvstack s /\ maxFailInvert s' = maxFailInvert s /\ gs s' = gs s.
  Proof using. unfold restoreState. destruct (has_state (cT c)); cbn; repeat split; discriminate. Qed.

  (* b' is b with other values in pt and memo *)
  Lemma Step_same {a} b b' :
    I c b' -> mono b' = mono b -> frame b' = frame b -> cur_off a <= cur_off b' -> Step a b -> Step a b'.
  Proof.
    intros HI Em Ef Ho (_ & HM & HF & _).
    exact (conj HI (conj (Mono_same _ _ _ _ eq_refl Em HM) (conj (Frame_same _ _ _ Ef HF) Ho))).
  Qed.

  (* s' is s with other values in the fields of Mono *)
  Lemma StepEq_mono {s s'} :
    pt s' = pt s -> memo s' = memo s -> exprCnt s' = exprCnt s -> frame s' = frame s -> Mono s s' -> I c s ->
    StepEq s s'.
  Proof.
    intros Ep Em Ec Ef HM HI. assert (Ho : cur_off s' = cur_off s) by (unfold cur_off; rewrite Ep; reflexivity).
    refine (conj (conj (I_same s s' Ep Em Ec HI) (conj HM (conj (Frame_same _ _ _ Ef (Frame_refl s)) _))) Ho).
    rewrite Ho. apply le_n.
  Qed.

  (* s' is s with other values in fields that I, Mono and Frame do not read *)
  Lemma StepEq_same {s s'} :
    pt s' = pt s -> memo s' = memo s -> mono s' = mono s -> frame s' = frame s -> I c s -> StepEq s s'.
  Proof.
    intros Ep Em Eo Ef. apply (StepEq_mono Ep Em); [|exact Ef|exact (Mono_same s s s s' eq_refl Eo (Mono_refl s))].
    injection Eo as _ Ec _ _. exact Ec.
  Qed.

  (* what Post reads of a state besides the fields of Frame *)
  Definition core (s : pstate) := (pt s, memo s, mono s, st s).

  Lemma core_mono {s s'} : core s' = core s -> mono s' = mono s.
  Proof. intros E. exact (f_equal (fun t => snd (fst t)) E). Qed.

  Lemma I_core {s s'} : core s' = core s -> I c s -> I c s'.
  Proof. intros E. injection E as E1 E2 _ E3 _ _ _. exact (I_same s s' E1 E2 E3). Qed.

  Lemma Post_core {a b a' b' ok} :
    Post c a ok b -> core a' = core a -> core b' = core b -> (Frame a b -> Frame a' b') -> Post c a' ok b'.
  Proof.
    intros (HI & HM & F & Ho & Hb) Ea Eb HF.
    refine (conj (I_core Eb HI) (conj (Mono_same _ _ _ _ (core_mono Ea) (core_mono Eb) HM) (conj (HF F) _))).
    injection Ea as a1 _ _ _ _ _ a7. injection Eb as b1 _ _ _ _ _ b7.
    unfold cur_off. rewrite a1, b1, a7, b7. exact (conj Ho Hb).
  Qed.

  (* u and d touch only the fields of Frame (and fields nothing reads), and d puts back what u changed there *)
  Definition bracket (u d : pstate -> pstate) : Prop :=
    (forall s, core (u s) = core s) /\ (forall s, core (d s) = core s) /\
    forall s s2, Frame (u s) s2 -> Frame s (d s2).

  (* s0 is the state the caller's specification is about *)
  Lemma bracket_wrap {u d} e {s0 s} : bracket u d -> Step s0 s ->
    match wrap e (u s) with
    | Ok (_, b) s2 => Post c s b (d s2)
    | Panic _ s2 => PostP c s0 s2
    | OutOfFuel => True
    end.
  Proof.
    intros (Qu & Qd & HF) HS. pose proof (Hwrap e (u s) (I_core (Qu s) (proj1 HS))) as Hw.
    destruct (wrap e (u s)) as [[v b] s2|pv s2|]; [ | | exact Logic.I].
    - exact (Post_core Hw (eq_sym (Qu s)) (Qd s2) (HF s s2)).
    - destruct Hw as [HM Hc]. apply (PostP_compose HS).
      exact (conj (Mono_same _ _ _ _ (eq_sym (core_mono (Qu s))) eq_refl HM) Hc).
  Qed.

  (* the same for the text of the model *)
  Lemma bracket_spec {u d} e k {s0 s} : bracket u d -> Step s0 s ->
    (forall v b s', Post c s b s' -> res_spec c s0 (k (v, b) s')) ->
    res_spec c s0 ((modify u ;;; r <- wrap e ;; modify d ;;; k r) s).
  Proof.
    intros B HS Hk. pose proof (bracket_wrap e B HS) as Hw. unfold bind, modify.
    destruct (wrap e (u s)) as [[v b] s2|pv s2|]; [apply Hk|..]; exact Hw.
  Qed.

  Lemma bracket_comp {u1 d1 u2 d2} :
    bracket u1 d1 -> bracket u2 d2 -> bracket (fun s => u2 (u1 s)) (fun s => d1 (d2 s)).
  Proof.
    intros (Qu1 & Qd1 & F1) (Qu2 & Qd2 & F2). split; [|split].
    - intros s. exact (eq_trans (Qu2 (u1 s)) (Qu1 s)).
    - intros s. exact (eq_trans (Qd1 (d2 s)) (Qd2 s)).
    - intros s s2 H. exact (F1 _ _ (F2 _ _ H)).
  Qed.

  Lemma bracket_id : bracket (fun s => s) (fun s => s).
  Proof. exact (conj (fun _ => eq_refl) (conj (fun _ => eq_refl) (fun _ _ H => H))). Qed.

  Lemma bracket_vstack : bracket pushV popV.
  Proof.
    refine (conj (fun _ => eq_refl) (conj (fun _ => eq_refl) _)).
    intros s s2 [F1 F2 F3 F4 F5]. constructor; cbn in *; congruence.
  Qed.

  Lemma bracket_rcvstack ls e : bracket (pushRecovery ls e) popRecovery.
  Proof.
    refine (conj (fun _ => eq_refl) (conj (fun _ => eq_refl) _)).
    intros s s2 [F1 F2 F3 F4 F5]. constructor; cbn in *; trivial. rewrite F4. reflexivity.
  Qed.

  Lemma bracket_rstack r : bracket (fun s => set_rstack (r :: rstack s) s) (fun s => set_rstack (tl (rstack s)) s).
  Proof.
    refine (conj (fun _ => eq_refl) (conj (fun _ => eq_refl) _)).
    intros s s2 [F1 F2 F3 F4 F5]. constructor; trivial. rewrite F3. reflexivity.
  Qed.

  Lemma bracket_invert :
    bracket (fun s => set_maxFailInvert (negb (maxFailInvert s)) s) (fun s => set_maxFailInvert (negb (maxFailInvert s)) s).
  Proof.
    refine (conj (fun _ => eq_refl) (conj (fun _ => eq_refl) _)).
    intros s s2 [F1 F2 F3 F4 F5]. constructor; trivial. rewrite F5. apply negb_involutive.
  Qed.

  Lemma failAt_off f p w s : cur_off (failAt f p w s) = cur_off s.
  Proof. unfold failAt. destruct (Bool.eqb _ _); [destruct (_ <? _); [|destruct (_ <? _)]|]; reflexivity. Qed.

  Lemma failAt_st f p w s : st (failAt f p w s) = st s.
  Proof. unfold failAt. destruct (Bool.eqb _ _); [destruct (_ <? _); [|destruct (_ <? _)]|]; reflexivity. Qed.

  Lemma StepEq_failAt {f p w s} : I c s -> StepEq s (failAt f p w s).
  Proof.
    unfold failAt. destruct (Bool.eqb _ _); [|apply StepEq_same; reflexivity].
    destruct (offset p <? offset (maxFailPos s)); [apply StepEq_same; reflexivity|].
    destruct (Nat.ltb_spec (offset (maxFailPos s)) (offset p)) as [Hlt|_]; [|apply StepEq_same; reflexivity].
    apply StepEq_mono; try reflexivity. constructor; [apply (Mono_refl s).. | exact (Nat.lt_le_incl _ _ Hlt)].
  Qed.

  Lemma StepEq_addErrAt {m p ex s} : I c s -> StepEq s (addErrAt c m p ex s).
  Proof.
    intros HI. split; [|reflexivity].
    exact (conj (addErrAt_I c m p ex s HI) (conj (addErrAt_Mono c m p ex s) (conj (addErrAt_Frame c m p ex s) (le_n _)))).
  Qed.

  Lemma read_off s : cur_off (read c s) = cur_off s + sp_w (pt s).
  Proof. apply (read_pt c s). Qed.

  Lemma read_st s : st (read c s) = st s.
  Proof. unfold read. destruct (_ && _); [destruct (o_allowinvalid _)|]; reflexivity. Qed.

  (* forwards or backwards, as long as it is not to before a *)
  Lemma Step_set_pt {a s p} :
    Step a s -> sp_ok (cData c) p -> cur_off a <= offset (sp_pos p) -> Step a (set_pt p s).
  Proof.
    intros HS Hp Ho. refine (Step_same s (set_pt p s) _ eq_refl eq_refl Ho HS).
    destruct HS as ([_ B C0] & _). exact (mkI c (set_pt p s) Hp B C0).
  Qed.

  Lemma Step_read {a s} : Step a s -> Step a (read c s).
  Proof.
    intros HS. assert (H1 : Step a (set_pt (adv (pt s)) s)).
    { pose proof HS as ([A _ _] & _ & _ & D). apply (Step_set_pt HS).
      - exact (sp_ok_adv _ _ (proj1 A) (sp_ok_width _ _ A)).
      - rewrite (proj1 (proj2 (adv_facts (pt s)))). unfold cur_off in *. lia. }
    unfold read. destruct (_ && _); [destruct (o_allowinvalid _)|]; try exact H1. exact (Step_then H1 StepEq_addErrAt).
  Qed.

  Lemma restore_st p s : st (restore p s) = st s.
  Proof. unfold restore. destruct (Nat.eqb _ _); reflexivity. Qed.

  Lemma Step_restore {a s p} :
    Step a s -> sp_ok (cData c) p -> cur_off a <= offset (sp_pos p) -> Step a (restore p s).
  Proof. intros HS Hp Ho. unfold restore. destruct (Nat.eqb _ _); [exact HS | exact (Step_set_pt HS Hp Ho)]. Qed.

  Lemma StepEq_restoreState x s : I c s -> StepEq s (restoreState c x s).
  Proof. unfold restoreState. destruct (has_state (cT c)); apply StepEq_same; reflexivity. Qed.

  (* saved <- cloneState; ... : what the rest of the function may assume *)
  Lemma clone_spec {A} {Q : Res A -> Prop} {k : store -> M A} {s} : I c s ->
    (forall x s1, (has_state (cT c) = true -> x = st s) -> StepEq s s1 -> Q (k x s1)) ->
    Q ((saved <- (fun s => let '(x, s') := cloneState c s in Ok x s') ;; k saved) s).
  Proof.
    intros HI H. unfold cloneState.
    destruct (has_state (cT c)); apply H; [reflexivity | | discriminate | ]; apply StepEq_same; trivial.
  Qed.

  (* ... and what restoring [saved] later gives *)
  Lemma restoreState_st {x s0} s :
    (has_state (cT c) = true -> x = st s0) -> has_state (cT c) = true -> st (restoreState c x s) = st s0.
  Proof. unfold restoreState. intros Hx Hh. rewrite Hh. exact (Hx Hh). Qed.

  (* back to the savepoint of s0 with the store of s0: a failure, and whatever else the caller likes to call it *)
  Lemma Post_restore {s0 s} b :
    I c s0 -> Step s0 s -> (has_state (cT c) = true -> st s = st s0) -> Post c s0 b (restore (pt s0) s).
  Proof.
    intros HI0 HS Hst. apply (Post_of_Step (Step_restore HS (I_pt c s0 HI0) (le_n _))).
    intros _. rewrite restore_off, restore_st. exact (conj eq_refl Hst).
  Qed.

  Lemma rollback {s0 s x} b :
    I c s0 -> Step s0 s -> (has_state (cT c) = true -> x = st s0) ->
    Post c s0 b (restore (pt s0) (restoreState c x s)).
  Proof.
    intros HI0 HS Hx. exact (Post_restore b HI0 (Step_then HS (StepEq_restoreState x s)) (restoreState_st s Hx)).
  Qed.

  Lemma cls_match_spec cv s : I c s -> res_spec c s (cls_match c cv (pt s) s).
  Proof. intros HI. exact (Post_true (Step_then (Step_read (Step_refl s HI)) StepEq_failAt)). Qed.

  Lemma cls_fail_spec cv s : I c s -> res_spec c s (cls_fail cv (pt s) s).
  Proof. intros HI. exact (Post_of_StepEq false (StepEq_failAt HI) (fun _ => failAt_st _ _ _ _)). Qed.

  Lemma parseAnyMatcher_spec s : I c s -> res_spec c s (parseAnyMatcher c s).
  Proof.
    intros HI. unfold parseAnyMatcher. destruct (is_eof s); [exact (cls_fail_spec b_dot s HI) | exact (cls_match_spec b_dot s HI)].
  Qed.

  Lemma parseCharClassMatcher_spec cv chars ranges classes ic inv table s :
    I c s -> res_spec c s (parseCharClassMatcher c cv chars ranges classes ic inv table s).
  Proof.
    intros HI. pose proof (cls_match_spec cv s HI). pose proof (cls_fail_spec cv s HI). unfold parseCharClassMatcher.
    destruct (_ && _); [destruct (Bool.eqb _ _) | destruct (is_eof s); [|destruct (class_decide _ _ _ _ _ _ _)]]; assumption.
  Qed.

  Lemma lit_loop_spec ic want s0 : I c s0 ->
    forall rs s, Step s0 s -> st s = st s0 -> res_spec c s0 (lit_loop c ic want (pt s0) rs s).
  Proof.
    intros HI0. induction rs as [|w rs IH]; intros s HS Hst; cbn [lit_loop].
    - exact (Post_true (Step_then HS StepEq_failAt)).
    - destruct (_ && _).
      + apply IH; [exact (Step_read HS) | rewrite read_st; exact Hst].
      + apply (Post_restore false HI0 (Step_then HS StepEq_failAt)). intros _. rewrite failAt_st. exact Hst.
  Qed.

  Lemma parseLitMatcher_spec lv ic want s : I c s -> res_spec c s (parseLitMatcher c lv ic want s).
  Proof. intros HI. exact (lit_loop_spec ic want s HI lv s (Step_refl s HI) eq_refl). Qed.

  Lemma parseAndExpr_spec e s : I c s -> res_spec c s (parseAndExpr c wrap e s).
  Proof.
    intros HI. unfold parseAndExpr. apply clone_spec; [exact HI|]. intros saved s1 Hsv [H1 _].
    apply (bracket_spec e _ bracket_vstack H1). intros v b s' HP. exact (rollback b HI (Step_trans H1 (Post_Step HP)) Hsv).
  Qed.

  Lemma parseNotExpr_spec e s : I c s -> res_spec c s (parseNotExpr c wrap e s).
  Proof.
    intros HI. unfold parseNotExpr. apply clone_spec; [exact HI|]. intros saved s1 Hsv [H1 _].
    apply (bracket_spec e _ (bracket_comp bracket_vstack bracket_invert) H1). intros v b s' HP.
    exact (rollback (negb b) HI (Step_trans H1 (Post_Step HP)) Hsv).
  Qed.

  Lemma parseLabeledExpr_spec l e s : I c s -> res_spec c s (parseLabeledExpr wrap l e s).
  Proof.
    intros HI. apply (bracket_spec e _ bracket_vstack (Step_refl s HI)).
    intros v b s' HP. unfold bind, modify, bind_label. destruct (_ && _); [|exact HP].
    destruct (vstack s') eqn:E; [exact HP|]. apply (Post_core HP); [reflexivity..|].
    intros [F1 F2 F3 F4 F5]. constructor; rewrite ?E in *; assumption.
  Qed.

  Lemma parseZeroOrOneExpr_spec e s : I c s -> res_spec c s (parseZeroOrOneExpr wrap e s).
  Proof.
    intros HI. apply (bracket_spec e _ bracket_vstack (Step_refl s HI)). intros v b s' HP. exact (Post_true (Post_Step HP)).
  Qed.

  Lemma parseRecoveryExpr_spec e rc ls s : I c s -> res_spec c s (parseRecoveryExpr wrap e rc ls s).
  Proof. intros HI. apply (bracket_spec e _ (bracket_rcvstack ls rc) (Step_refl s HI)). intros v b s' HP. exact HP. Qed.

  Lemma choice_loop_spec alts : forall s, I c s -> res_spec c s (choice_loop c wrap alts s).
  Proof.
    induction alts as [|a alts IH]; intros s HI; cbn [choice_loop]; [exact (Post_refl s false HI)|].
    apply clone_spec; [exact HI|]. intros saved s1 Hsv H1.
    apply (bracket_spec a _ bracket_vstack (proj1 H1)). intros v [|] s' HP.
    - exact (Post_true (Step_trans (proj1 H1) (Post_Step HP))).
    - pose proof (StepEq_then (StepEq_then H1 (fun _ => proj1 (Post_false_inv HP))) (StepEq_restoreState saved s')) as H3.
      exact (res_compose (Post_of_StepEq false H3 (restoreState_st s' Hsv)) (IH _ (proj1 (proj1 H3)))).
  Qed.

  Lemma seq_loop_spec s0 saved : I c s0 -> (has_state (cT c) = true -> saved = st s0) ->
    forall es acc s, Step s0 s -> res_spec c s0 (seq_loop c wrap (pt s0) saved es acc s).
  Proof.
    intros HI0 Hsv. induction es as [|e es IH]; intros acc s HS; cbn [seq_loop]; [exact (Post_true HS)|].
    apply (bracket_spec e _ bracket_id HS). intros v b s' HP. pose proof (Step_trans HS (Post_Step HP)) as HS'.
    destruct b; [exact (IH _ _ HS') | exact (rollback false HI0 HS' Hsv)].
  Qed.

  Lemma parseSeqExpr_spec es s : I c s -> res_spec c s (parseSeqExpr c wrap es s).
  Proof.
    intros HI. unfold parseSeqExpr. apply clone_spec; [exact HI|]. intros saved s1 Hsv [H1 _].
    exact (seq_loop_spec s saved HI Hsv es [] s1 H1).
  Qed.

  (* the loop, entered in s with acc collected since s0, fails as a whole iff it returns no value *)
  Lemma rep_loop_spec e s0 : forall n acc s, Post c s0 (0 <? length acc) s ->
    match rep_loop wrap n e acc s with
    | Ok vs s' => Post c s0 (0 <? length vs) s'
    | Panic _ s' => PostP c s0 s'
    | OutOfFuel => True
    end.
  Proof.
    induction n as [|n IH]; intros acc s HP0; cbn [rep_loop]; [exact Logic.I|].
    pose proof (bracket_wrap e bracket_vstack (Post_Step HP0)) as Hw. unfold bind, modify.
    destruct (wrap e (pushV s)) as [[v [|]] s2|pv s2|]; cbn [fst snd]; [ | | exact Hw | exact Logic.I].
    - exact (IH (v :: acc) _ (Post_true (Step_trans (Post_Step HP0) (Post_Step Hw)))).
    - unfold ret. rewrite rev_length. exact (Post_then_fail HP0 Hw).
  Qed.

  Lemma parseZeroOrMoreExpr_spec n e s : I c s -> res_spec c s (parseZeroOrMoreExpr wrap n e s).
  Proof.
    intros HI. pose proof (rep_loop_spec e s n [] s (Post_refl s false HI)) as Hr. unfold parseZeroOrMoreExpr, bind.
    destruct (rep_loop wrap n e [] s) as [vs s'|pv s'|]; [|exact Hr..]. exact (Post_true (Post_Step Hr)).
  Qed.

  Lemma parseOneOrMoreExpr_spec n e s : I c s -> res_spec c s (parseOneOrMoreExpr wrap n e s).
  Proof.
    intros HI. pose proof (rep_loop_spec e s n [] s (Post_refl s false HI)) as Hr. unfold parseOneOrMoreExpr, bind.
    destruct (rep_loop wrap n e [] s) as [[|x vs] s'|pv s'|]; exact Hr.
  Qed.

  Lemma throw_loop_spec l : forall stack s, I c s -> res_spec c s (throw_loop c wrap l stack s).
  Proof.
    induction stack as [|[ls rc] stack IH]; intros s HI; cbn [throw_loop]; [exact (Post_refl s false HI)|].
    destruct (mem_bytes l ls); [|exact (IH s HI)].
    destruct (q_recover_scope (cQ c));
      [apply (bracket_spec rc _ bracket_id (Step_refl s HI)) | apply (bracket_spec rc _ bracket_vstack (Step_refl s HI))];
      (intros v [|] s' HP; [exact HP | exact (res_compose HP (IH s' (proj1 HP)))]).
  Qed.

  Lemma StepEq_setcur t p s : I c s -> StepEq s (set_cur_text t (set_cur_pos p s)).
  Proof. apply StepEq_same; reflexivity. Qed.

  Lemma fresh_ctx_spec (k : M (val * bool)) :
    (forall s, I c s -> res_spec c s (k s)) -> forall s, I c s -> res_spec c s ((fresh_ctx c ;;; k) s).
  Proof.
    intros Hk s HI. unfold fresh_ctx. destruct (q_stale_ctx (cQ c)); [exact (Hk s HI)|].
    pose proof (StepEq_setcur [] (sp_pos (pt s)) s HI) as H1.
    exact (res_compose (Post_of_StepEq false H1 (fun _ => eq_refl)) (Hk _ (proj1 (proj1 H1)))).
  Qed.

  (* a code block, and the recording of the error it may return *)
  Lemma run_code_spec {R} k id (f : cid -> ctx -> cbout R) s : I c s ->
    match run_code c k id f s with
    | Ok (_, err) s' => forall p, StepEq s (match err with Some m => addErrAt c m p [] s' | None => s' end)
    | Panic _ s' => PostP c s s'
    | OutOfFuel => True
    end.
  Proof.
    intros HI. unfold run_code.
    assert (H : forall st' gs', StepEq s (set_gs gs' (set_st st' (set_trace (mkEvent k id (block_ctx c id s) :: trace s) s)))).
    { intros. apply StepEq_mono; trivial.
      constructor; [apply (Mono_refl s) | apply (Mono_refl s) | eexists [_]; reflexivity | apply (Mono_refl s)]. }
    destruct (f id (block_ctx c id s)) as [r err st' gs'|pv st' gs']; [|exact (PostP_of_Step (proj1 (H st' gs')))].
    intros p. destruct err; [exact (StepEq_then (H st' gs') StepEq_addErrAt) | exact (H st' gs')].
  Qed.

  Lemma parseActionExpr_spec id e s : I c s -> res_spec c s (parseActionExpr c wrap id e s).
  Proof.
    intros HI. unfold parseActionExpr.
    apply (bracket_spec e _ bracket_id (Step_refl s HI)). intros v [|] s2 HP; [|exact HP].
    pose proof (Step_then (Post_Step HP) (StepEq_setcur (sliceFrom (pt s) s2) (sp_pos (pt s)) s2)) as HS3.
    apply clone_spec; [exact (proj1 HS3)|]. intros saved s4 _ H4. pose proof (Step_then HS3 (fun _ => H4)) as HS4.
    pose proof (run_code_spec KAct id (ce_act (cE c)) s4 (proj1 HS4)) as H5. unfold bind.
    destruct (run_code c KAct id (ce_act (cE c)) s4) as [[r err] s5|pv s5|]; [ | exact (PostP_compose HS4 H5) | exact Logic.I].
    exact (Post_true (Step_then (Step_then HS4 (fun _ => H5 _)) (StepEq_restoreState saved _))).
  Qed.

  Lemma parseCodePred_spec k neg id s : I c s -> res_spec c s (parseCodePred c k neg id s).
  Proof.
    revert s. apply fresh_ctx_spec. intros s HI. apply clone_spec; [exact HI|]. intros saved s2 Hsv H2.
    pose proof (run_code_spec k id (ce_pred (cE c)) s2 (proj1 (proj1 H2))) as H3. unfold bind.
    destruct (run_code c k id (ce_pred (cE c)) s2) as [[ok err] s3|pv s3|]; [ | exact (PostP_compose (proj1 H2) H3) | exact Logic.I].
    exact (Post_of_StepEq _ (StepEq_then (StepEq_then H2 (fun _ => H3 _)) (StepEq_restoreState saved _))
             (restoreState_st _ Hsv)).
  Qed.

  Lemma parseStateCodeExpr_spec id s : I c s -> res_spec c s (parseStateCodeExpr c id s).
  Proof.
    revert s. apply fresh_ctx_spec. intros s HI.
    pose proof (run_code_spec KState id (ce_state (cE c)) s HI) as H3. unfold bind.
    destruct (run_code c KState id (ce_state (cE c)) s) as [[r err] s3|pv s3|]; [ | exact H3 | exact Logic.I].
    exact (Post_true (proj1 (H3 _))).
  Qed.

  Lemma StepEq_set_memo m s : memo_ok c m -> I c s -> StepEq s (set_memo m s).
  Proof.
    intros Hm HI. refine (conj (Step_same s (set_memo m s) _ eq_refl eq_refl (le_n (cur_off s)) (Step_refl s HI)) eq_refl).
    destruct HI as [A _ C0]. exact (mkI c (set_memo m s) A Hm C0).
  Qed.

  Lemma StepEq_setMemoized p k r s : entry_ok c (offset (sp_pos p), k, r) -> I c s -> StepEq s (setMemoized p k r s).
  Proof. intros He HI. exact (StepEq_set_memo _ s (Forall_cons _ He (I_memo c s HI)) HI). Qed.

  Lemma StepEq_dropMemoized p k s : I c s -> StepEq s (dropMemoized p k s).
  Proof. intros HI. exact (StepEq_set_memo _ s (incl_Forall (incl_filter _ _) (I_memo c s HI)) HI). Qed.

  Lemma memo_lookup_ok o k m r : memo_ok c m -> memo_lookup o k m = Some r -> entry_ok c (o, k, r).
  Proof.
    induction m as [|[[o' k'] r'] m IH]; cbn [memo_lookup]; intros Hm Hl; [discriminate|].
    inversion Hm as [|x l Hx Hl']; subst.
    destruct (Nat.eqb_spec o o') as [->|]; [destruct (mkey_eqb k k')|]; auto.
    injection Hl as <-. exact Hx.
  Qed.

  (* from s, [res] may be given as the result of k entered in s0 *)
  Definition entry_from (k : mkey) (s0 s : pstate) (res : rtuple) : Prop :=
    Step s0 s /\ entry_ok c (cur_off s0, k, res) /\
    (rt_b res = false -> has_state (cT c) = true -> st s = st s0).

  Lemma Post_entry {k s0 s res} : entry_from k s0 s res -> Post c s0 (rt_b res) (restore (rt_end res) s).
  Proof.
    intros (HS & (E1 & E2 & E3) & Hst). apply (Post_of_Step (Step_restore HS E1 E3)).
    intros Hb. rewrite restore_off, restore_st. exact (conj (E2 Hb) (Hst Hb)).
  Qed.

  Lemma memo_hit_spec k s res : I c s -> getMemoized k s = Some res ->
    Post c s (rt_b res) (restore (rt_end res) s).
  Proof.
    intros HI Hg. exact (Post_entry (conj (Step_refl s HI) (conj (memo_lookup_ok _ _ _ _ (I_memo c s HI) Hg) (fun _ _ => eq_refl)))).
  Qed.

  Lemma memoize_spec (m : M (val * bool)) k s : res_spec c s (m s) ->
    res_spec c s ((r <- m ;; modify (fun s' => setMemoized (pt s) k (mkRt (fst r) (snd r) (pt s')) s') ;;; ret r) s).
  Proof.
    intros Hr. unfold bind, modify. destruct (m s) as [[v b] s2|pv s2|]; [|exact Hr..].
    apply (Post_then_StepEq Hr); [|reflexivity]. apply StepEq_setMemoized.
    destruct Hr as (HI2 & _ & _ & Ho & Hb). exact (conj (I_pt c s2 HI2) (conj (fun E => proj1 (Hb E)) Ho)).
  Qed.

  Lemma parseRule_spec r s : I c s -> res_spec c s (parseRule wrap r s).
  Proof.
    intros HI. apply (bracket_spec (r_expr r) _ (bracket_comp (bracket_rstack r) bracket_vstack) (Step_refl s HI)).
    intros v b s' HP. exact HP.
  Qed.

  Lemma parseRuleMemoize_spec r s : I c s -> res_spec c s (parseRuleMemoize c wrap r s).
  Proof.
    intros HI. pose proof (parseRule_spec r s HI) as Hr. unfold parseRuleMemoize. destruct (_ && _); [exact Hr|].
    destruct (getMemoized (KRule (r_name r)) s) as [res|] eqn:Hg; [exact (memo_hit_spec _ _ _ HI Hg)|].
    exact (memoize_spec (parseRule wrap r) _ s Hr).
  Qed.

  (* after the first round every further round must end strictly farther, and ends stay within the input, so
     |input| - start + 2 rounds always suffice (whatever the rule body does) *)
  Definition rounds_left (depth : nat) (s0 : pstate) (last : rtuple) : nat :=
    if Nat.eqb depth 0 then length (cData c) - cur_off s0 + 2
    else length (cData c) - offset (sp_pos (rt_end last)) + 1.

  (* what the loop returns to the leader entered in s0; it runs out of fuel only for the reason given *)
  Definition loop_spec (k : mkey) (s0 : pstate) (why : Prop) (r : Res rtuple) : Prop :=
    match r with
    | Ok res s' => entry_from k s0 s' res
    | Panic _ s' => PostP c s0 s'
    | OutOfFuel => why
    end.

  (* s is the state at the head of a round: the rule body runs out of fuel, or the loop was given less than rounds_left *)
  Lemma leader_loop_spec r s0 : I c s0 ->
    forall n depth last lastErrs s,
      entry_from (KRule (r_name r)) s0 s last -> (exists l, lastErrs = errs s0 ++ l) ->
      loop_spec (KRule (r_name r)) s0 ((exists s', Step s0 s' /\ parseRule wrap r s' = OutOfFuel) \/ n < rounds_left depth s0 last)
        (leader_loop c wrap n r (pt s0) depth last lastErrs s).
  Proof.
    intros HI0. induction n as [|n IH]; intros depth last lastErrs s (HS & He & Hst) Herr; cbn [leader_loop].
    { right. unfold rounds_left. destruct (Nat.eqb depth 0); lia. }
    apply clone_spec; [exact (proj1 HS)|]. intros saved s1 Hsv H1. unfold bind at 1, modify at 1.
    pose proof (Step_then (Step_then HS (fun _ => H1)) (StepEq_setMemoized (pt s0) (KRule (r_name r)) last s1 He)) as HS1.
    set (s1' := setMemoized _ _ _ s1) in *. pose proof (parseRule_spec r s1' (proj1 HS1)) as Hr. unfold bind at 1.
    destruct (parseRule wrap r s1') as [[v b] s2|pv s2|] eqn:Er; [ | exact (PostP_compose HS1 Hr) | left; exists s1'; exact (conj HS1 Er)].
    pose proof (Step_trans HS1 (Post_Step Hr)) as HS2. unfold bind at 1. cbn [fst snd].
    destruct (negb b || _) eqn:Hexit; unfold bind, modify.
    - (* stop: the errors and the store of this attempt are dropped *)
      split; [|split; [exact He|]].
      + pose proof (Step_then HS2 (StepEq_restoreState saved s2)) as ([A B C0] & [_ M2 M3 M4] & HF & D).
        set (s3 := restoreState c saved s2) in *.
        exact (conj (mkI c (set_errs lastErrs s3) A B C0) (conj (mkMono s0 (set_errs lastErrs s3) Herr M2 M3 M4)
                 (conj (Frame_same s0 s3 (set_errs lastErrs s3) eq_refl HF) D))).
      + intros Hb Hh. cbn [st set_errs]. rewrite (restoreState_st s2 Hsv Hh). exact (Hst Hb Hh).
    - (* grow: the attempt succeeded and, unless it was the first, ended farther than the last *)
      apply orb_false_iff in Hexit as [->%negb_false_iff Hex]. pose proof HS2 as (HI2 & HM2 & _ & D2).
      specialize (IH (S depth) (mkRt v true (pt s2)) (errs s2) (restore (pt s0) s2)
                    (conj (Step_restore HS2 (I_pt c s0 HI0) (le_n _))
                       (conj (conj (I_pt c s2 HI2) (conj (fun E => False_ind _ (diff_true_false E)) D2))
                          (fun E => False_ind _ (diff_true_false E))))
                    (M_errs _ _ HM2)).
      destruct (leader_loop c wrap n r (pt s0) (S depth) _ _ _) as [res s'|pv s'|]; [exact IH..|].
      destruct IH as [IH|IH]; [left; exact IH|right]. pose proof (proj2 (proj2 (I_pt c s2 HI2))) as Hend.
      unfold rounds_left, cur_off in *. cbn [Nat.eqb rt_end] in IH. destruct (Nat.eqb_spec depth 0); [lia|].
      rewrite andb_true_r in Hex. apply Nat.leb_gt in Hex. lia.
  Qed.

  Lemma leader_start r n s : I c s ->
    loop_spec (KRule (r_name r)) s ((exists s', Step s s' /\ parseRule wrap r s' = OutOfFuel) \/ n < length (cData c) - cur_off s + 2)
      (leader_loop c wrap n r (pt s) 0 (mkRt VNil false (pt s)) (errs s) s).
  Proof.
    intros HI. apply (leader_loop_spec r s HI n 0); [|exact (ex_intro _ [] (eq_sym (app_nil_r _)))].
    exact (conj (Step_refl s HI) (conj (conj (I_pt c s HI) (conj (fun _ => eq_refl) (le_n _))) (fun _ _ => eq_refl))).
  Qed.

  Lemma leader_terminates n r s : I c s ->
    (forall s', Step s s' -> parseRule wrap r s' <> OutOfFuel) ->
    length (cData c) + 2 <= n ->
    parseRuleRecursiveLeader c wrap n r s <> OutOfFuel.
  Proof.
    intros HI Hnf Hn. pose proof (leader_start r n s HI) as Hl. unfold parseRuleRecursiveLeader.
    destruct (getMemoized (KRule (r_name r)) s) as [res|]; [discriminate|]. unfold bind.
    destruct (leader_loop c wrap n r (pt s) 0 _ (errs s) s) as [last s'|pv s'|]; [discriminate..|].
    destruct Hl as [[s' [Hi' Hs']]|Hl]; [exact (False_ind _ (Hnf s' Hi' Hs')) | lia].
  Qed.

  Lemma parseRuleRecursiveLeader_spec n r s : I c s -> res_spec c s (parseRuleRecursiveLeader c wrap n r s).
  Proof.
    intros HI. pose proof (leader_start r n s HI) as Hl. unfold parseRuleRecursiveLeader.
    destruct (getMemoized (KRule (r_name r)) s) as [res|] eqn:Hg; [exact (memo_hit_spec _ _ _ HI Hg)|]. unfold bind, modify.
    destruct (leader_loop c wrap n r (pt s) 0 _ (errs s) s) as [last s'|pv s'|]; [|exact Hl|exact Logic.I].
    destruct (_ || _); apply (Post_then_StepEq (Post_entry Hl));
      [apply StepEq_setMemoized; exact (proj1 (proj2 Hl)) | reflexivity | apply StepEq_dropMemoized | reflexivity].
  Qed.

  Lemma parseRuleWrap_spec n r s : I c s -> res_spec c s (parseRuleWrap c wrap n r s).
  Proof.
    intros HI. pose proof (parseRuleRecursiveLeader_spec n r s HI). pose proof (parseRuleMemoize_spec r s HI).
    pose proof (parseRule_spec r s HI). unfold parseRuleWrap.
    destruct (_ && _); [destruct (_ || _); [destruct (r_leader r); [|destruct (_ && _)]|] |
      destruct (negb _); [destruct (o_memoize _) | destruct (t_leftrec _); [destruct (r_leftrec r); [destruct (r_leader r)|]|]]];
      assumption.
  Qed.

  Lemma parseRuleRefExpr_spec n nm s : I c s -> res_spec c s (parseRuleRefExpr c wrap n nm s).
  Proof.
    intros HI. unfold parseRuleRefExpr. destruct nm as [|x nm]; [exact (PostP_refl s HI)|].
    destruct (find_rule (x :: nm) (cG c)) as [r|]; [exact (parseRuleWrap_spec n r s HI)|].
    exact (Post_of_StepEq false (StepEq_addErrAt HI) (fun _ => eq_refl)).
  Qed.

  Lemma tick_spec s : I c s ->
    let s1 := set_exprCnt (exprCnt s + 1)%N s in
    if negb (N.eqb (o_maxexpr (cO c)) 0) && N.ltb (o_maxexpr (cO c)) (exprCnt s1) then PostP c s s1
    else Post c s false s1.
  Proof.
    intros HI s1.
    assert (HM : Mono s s1).
    { constructor; [apply (Mono_refl s) | apply N.le_add_r | apply (Mono_refl s)..]. }
    destruct (negb _ && _) eqn:Hb.
    { split; [exact HM|]. destruct HI as [_ _ [C0|C0]]; [left; exact C0 | right; cbn [s1 exprCnt set_exprCnt]; lia]. }
    refine (Post_of_StepEq _ (conj (conj _ (conj HM (conj (Frame_same s s s1 eq_refl (Frame_refl s)) (le_n _)))) eq_refl) (fun _ => eq_refl)).
    destruct HI as [A B _]. refine (mkI c s1 A B _).
    apply andb_false_iff in Hb as [Hb%negb_false_iff%N.eqb_eq | Hb%N.ltb_ge]; [left | right]; exact Hb.
  Qed.

  Lemma parseExpr_spec n e s : I c s -> res_spec c s (parseExpr c wrap n e s).
  Proof.
    intros HI. pose proof (tick_spec s HI) as Ht. unfold parseExpr. cbv zeta in *.
    set (s1 := set_exprCnt (exprCnt s + 1)%N s) in *. destruct (negb _ && _); [exact Ht|].
    apply (res_compose Ht). pose proof (proj1 Ht) as HI1.
    destruct e;
      [ apply parseLitMatcher_spec | apply parseCharClassMatcher_spec | apply parseAnyMatcher_spec | apply parseSeqExpr_spec
      | apply choice_loop_spec | apply parseZeroOrMoreExpr_spec | apply parseOneOrMoreExpr_spec | apply parseZeroOrOneExpr_spec
      | apply parseAndExpr_spec | apply parseNotExpr_spec | apply parseLabeledExpr_spec | apply parseActionExpr_spec
      | apply parseCodePred_spec | apply parseCodePred_spec
      | destruct (has_state (cT c)); [apply parseStateCodeExpr_spec | apply PostP_refl]
      | apply parseRuleRefExpr_spec | apply parseRecoveryExpr_spec | apply throw_loop_spec ]; exact HI1.
  Qed.

  Lemma parseExprWrapBody_spec n e s : I c s -> res_spec c s (parseExprWrapBody c wrap n e s).
  Proof.
    intros HI. pose proof (parseExpr_spec n e s HI) as He. unfold parseExprWrapBody, bind.
    assert (Hma : match memo_active c s with Ok _ s' => s' = s | Panic _ s' => s' = s | OutOfFuel => False end).
    { unfold memo_active. destruct (t_optimize (cT c)); [reflexivity|]. destruct (t_leftrec (cT c)); [|reflexivity].
      destruct (rstack s); reflexivity. }
    destruct (memo_active c s) as [active s'|pv s'|]; [subst s'|subst s'; exact (PostP_refl s HI)|contradiction].
    destruct (active && _ && _); [|exact He].
    destruct (getMemoized (KExpr (node_id e)) s) as [res|] eqn:Hg; [|exact (memoize_spec (parseExpr c wrap n e) _ s He)].
    destruct (q_memo_nocharge (cQ c)); [exact (memo_hit_spec _ _ _ HI Hg)|].
    pose proof (tick_spec s HI) as Ht. cbv zeta in *. destruct (negb _ && _); [exact Ht|].
    exact (Post_trans Ht (memo_hit_spec _ _ _ (proj1 Ht) Hg)).
  Qed.
End Step.

Theorem parseExprWrap_inv c : forall fuel, wrap_spec c (parseExprWrap c fuel).
Proof.
  induction fuel as [|f IH]; intros e s HI; [exact Logic.I|].
  exact (parseExprWrapBody_spec c _ IH f e s HI).
Qed.

Theorem parseRuleWrap_inv c fuel n r s : I c s -> res_spec c s (parseRuleWrap c (parseExprWrap c fuel) n r s).
Proof. apply parseRuleWrap_spec. apply parseExprWrap_inv. Qed.

(* the state in which parse calls the start rule *)
Lemma I_init c : I c (read c (init_state c)).
Proof.
  assert (H : I c (set_pt (adv (pt (init_state c))) (init_state c))).
  { constructor; [|constructor|right; apply N.le_0_l].
    apply sp_ok_adv; [reflexivity | cbn; lia]. }
  unfold read. destruct (_ && _); [destruct (o_allowinvalid _)|]; try exact H. exact (addErrAt_I c _ _ _ _ H).
Qed.
