(* The grammars that witness the findings in the left-recursion analysis of the pinned tree
   (the statements about them are in Props/C07.v and Props/C19.v). *)
From PV Require Import Lib.Base Syntax.Ast Model.Prepare.

Definition nA : bytes := [65%N]. Definition nB : bytes := [66%N].
Definition nS : bytes := [83%N]. Definition nZ : bytes := [90%N]. Definition nM : bytes := [77%N].

Definition pinned : pquirks := mkPq true true true.

(* A <- (B A)? 'y' ; B <- 'x'?   -- A reaches itself behind the nullable B inside an optional *)
Definition g_inner : agrammar :=
  [mkARule nA [] (ASeq 1%N [AOpt (ASeq 2%N [ARef 3%N nB; ARef 4%N nA]); ALit [121%N] false]);
   mkARule nB [] (AOpt (ALit [120%N] false))].

(* A <- &A 'x'   -- through a lookahead predicate *)
Definition g_pred : agrammar :=
  [mkARule nA [] (ASeq 1%N [AAnd (ARef 2%N nA); ALit [120%N] false])].

(* S <- Z ; Z <- M Z / 'y' ; M <- Z / ""   -- the leader depends on the iteration order *)
Definition g_order : agrammar :=
  [mkARule nS [] (ARef 1%N nZ);
   mkARule nZ [] (AAlt 2%N [ASeq 3%N [ARef 4%N nM; ARef 5%N nZ]; ALit [121%N] false]);
   mkARule nM [] (AAlt 6%N [ARef 7%N nZ; ALit [] false])].
