(* The expression counter is bookkeeping only: without an expression budget, two evaluations that
   differ only in the counter they start from proceed identically (same outcome, same value, same
   end position, state and scope, same log and global store).  This is [reval_rel] for [meq]; read
   laxly it also lets the fuel grow, which carries the optimizer's laws over to Ref itself. *)
From PV Require Import Lib.Base Syntax.RGrammar Syntax.Code Model.Runtime Spec.Ref Proofs.RefMono.

Section Cnt.
  Variable c : rdata.
  Hypothesis Hbud : o_maxexpr (rO c) = 0%N.

  Definition meq (m1 m2 : rmu) : Prop := u_gs m1 = u_gs m2 /\ u_log m1 = u_log m2.

  (* [rres_rel False eq meq] written out: the two are convertible *)
  Definition rsim (a b : rres) : Prop :=
    match a, b with
    | RFail m, RFail m' => meq m m'
    | ROk v g sc m, ROk v' g' sc' m' => v = v' /\ g = g' /\ sc = sc' /\ meq m m'
    | RPanic pv m pos R, RPanic pv' m' pos' R' => pv = pv' /\ pos = pos' /\ R = R' /\ meq m m'
    | ROut, ROut => True
    | _, _ => False
    end.

  Lemma meq_refl m : meq m m.
  Proof. split; reflexivity. Qed.

  Lemma meq_log e m1 m2 : meq m1 m2 -> meq (log e m1) (log e m2).
  Proof. intros [A B]. split; cbn; congruence. Qed.

  Lemma meq_tick m1 m2 : meq m1 m2 -> meq (tick m1) (tick m2).
  Proof. intros [A B]. split; assumption. Qed.

  Lemma meq_blocks {A} (f : cid -> ctx -> cbout A) : rblk_ok c meq f.
  Proof. apply rblk_ok_gs; [intros m1 m2 [E _]; exact E | intros gs e m1 m2 [_ E]; split; cbn; congruence]. Qed.

  Theorem reval_fuel_cnt lax f f' : fuel_le lax f f' -> ev_rel lax meq (reval c f) (reval c f').
  Proof.
    apply (reval_rel c lax meq meq_log (meq_blocks _) (meq_blocks _) (meq_blocks _) meq_tick).
    unfold over_budget. rewrite Hbud. reflexivity.
  Qed.

  (* with one more unit of fuel, a node is what its body makes of the evaluator that evaluates it; the tick the
     node costs on the left is invisible to [meq] *)
  Lemma reval_node f H R inv e sc g m1 m2 : meq m1 m2 ->
    rres_rel True eq meq (reval c (S f) H R inv e sc g m1) (reval_body c (reval c (S f)) (S f) H R inv e sc g m2).
  Proof.
    intros Hm. rewrite (reval_S_nobudget c Hbud).
    apply (body_rel c True meq meq_log (meq_blocks _) (meq_blocks _) (meq_blocks _)); [| |exact Hm].
    - apply reval_fuel_cnt. right. auto.
    - right. auto.
  Qed.
End Cnt.
