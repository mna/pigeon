(* Two configurations with the same data (input, Unicode library, options, grammar, code blocks) that differ in
   template flags and quirk switches, each within the hypotheses of the refinement, refine the same specification,
   hence return the same. *)
From PV Require Import Syntax.RGrammar Model.PState Model.Runtime Spec.RefParse Proofs.Sim Proofs.TopLevel.

Definition with_tmpl (t : tmpl) (c : cfg) : cfg :=
  mkCfg (cQ c) (cU c) t (cO c) (cData c) (cG c) (cE c).

Lemma rd_with_tmpl t c : rd (with_tmpl t c) = rd c.
Proof. reflexivity. Qed.

Definition hyps (c : cfg) : Prop :=
  state_ok c /\ o_memoize (cO c) = false /\ G_wf c /\ stale_ok c /\ t_leftrec (cT c) = false.

(* what the caller gets (value and error list, or the propagated panic), the globalStore and the expression count *)
Definition same_result (o1 o2 : outcome) : Prop :=
  match o1, o2 with
  | Returned v1 es1 s1, Returned v2 es2 s2 => v1 = v2 /\ es1 = es2 /\ gs s1 = gs s2 /\ exprCnt s1 = exprCnt s2
  | Panicked pv1 s1, Panicked pv2 s2 => pv1 = pv2 /\ gs s1 = gs s2 /\ exprCnt s1 = exprCnt s2
  | Diverged, Diverged => True
  | _, _ => False
  end.

Lemma obs_same o1 o2 r : obs_equiv o1 r -> obs_equiv o2 r -> same_result o1 o2.
Proof.
  destruct r, o1; try contradiction; destruct o2; try contradiction; trivial.
  - intros (E1 & E2 & E3 & E4 & _) (F1 & F2 & F3 & F4 & _). repeat split; congruence.
  - intros (E1 & E3 & E4 & _) (F1 & F3 & F4 & _). repeat split; congruence.
Qed.

Theorem variants_agree c1 c2 : rd c1 = rd c2 -> hyps c1 -> hyps c2 ->
  forall fuel, same_result (parse c1 fuel) (parse c2 fuel).
Proof.
  intros Hrd (A1 & A2 & A3 & A4 & A5) (B1 & B2 & B3 & B4 & B5) fuel.
  apply (obs_same _ _ (rparse c2 fuel)); [rewrite <- Hrd|]; apply parse_refines_rparse; assumption.
Qed.

Corollary tmpl_variants_agree c t1 t2 : hyps (with_tmpl t1 c) -> hyps (with_tmpl t2 c) ->
  forall fuel, same_result (parse (with_tmpl t1 c) fuel) (parse (with_tmpl t2 c) fuel).
Proof. apply variants_agree; auto. Qed.
