(* One traversal of the specification's evaluator, [reval_rel]: for every relation Q on the records [rmu]
   (global store, log, counter) that logging, counting, the budget test and the code blocks respect,
   evaluations started from Q-related records return the same outcome with Q-related records ([rres_rel]);
   in the lax reading the left evaluation may have less fuel, and may then run out of it.
   Q = equality, read laxly, is fuel monotonicity (below: once defined, more fuel gives the same result,
   which lets statements made "for some fuel" be read as statements about the expression); Q = "same store
   and log" is CntInsens.v, Q = "any two records" is Determinacy.v.  The lemmas about the loops hold of any
   two related evaluators, not only of [reval]: that is how OptLaws.v uses them. *)
From PV Require Import Lib.Base Syntax.RGrammar Syntax.Code Model.PState Spec.Pos Model.Runtime Spec.Ref.

Definition evT := handlers -> option rule -> bool -> expr -> scope -> rsig -> rmu -> rres.

Definition tick (m : rmu) : rmu := mkMu (u_gs m) (u_log m) (u_cnt m + 1)%N.

Lemma reval_S c f H R inv e sc g m :
  reval c (S f) H R inv e sc g m =
  if over_budget c (u_cnt (tick m)) then RPanic msg_max_expr (tick m) (pos_of (rData c) (g_off g)) R
  else reval_body c (reval c f) f H R inv e sc g (tick m).
Proof. reflexivity. Qed.

Lemma reval_S_nobudget c : o_maxexpr (rO c) = 0%N -> forall f H R inv e sc g m,
  reval c (S f) H R inv e sc g m = reval_body c (reval c f) f H R inv e sc g (tick m).
Proof. intros Hb f H R inv e sc g m. rewrite reval_S. unfold over_budget. rewrite Hb. reflexivity. Qed.

(* same outcome, values related by V, records by Q; when [lax], the left side may also be out of fuel *)
Definition rres_rel (lax : Prop) (V : val -> val -> Prop) (Q : rmu -> rmu -> Prop) (a b : rres) : Prop :=
  match a, b with
  | RFail m, RFail m' => Q m m'
  | ROk v g sc m, ROk v' g' sc' m' => V v v' /\ g = g' /\ sc = sc' /\ Q m m'
  | RPanic pv m pos R, RPanic pv' m' pos' R' => pv = pv' /\ pos = pos' /\ R = R' /\ Q m m'
  | ROut, ROut => True
  | ROut, _ => lax
  | _, _ => False
  end.

Definition rrepres_rel (lax : Prop) (Q : rmu -> rmu -> Prop) (a b : rrepres) : Prop :=
  match a, b with
  | RepDone vs g m, RepDone vs' g' m' => vs = vs' /\ g = g' /\ Q m m'
  | RepPanic pv m pos R, RepPanic pv' m' pos' R' => pv = pv' /\ pos = pos' /\ R = R' /\ Q m m'
  | RepOut, RepOut => True
  | RepOut, _ => lax
  | _, _ => False
  end.

Definition ropt_rel (Q : rmu -> rmu -> Prop) (a b : option (nat * rmu)) : Prop :=
  match a, b with Some (o1, m1), Some (o2, m2) => o1 = o2 /\ Q m1 m2 | None, None => True | _, _ => False end.

Definition rblk_rel (Q : rmu -> rmu -> Prop) {A} (a b : (A * option bytes * store * rmu) + (bytes * rmu)) : Prop :=
  match a, b with
  | inl (r, err, st, m), inl (r', err', st', m') => r = r' /\ err = err' /\ st = st' /\ Q m m'
  | inr (pv, m), inr (pv', m') => pv = pv' /\ Q m m'
  | _, _ => False
  end.

(* The shape of every use [reval_body] and the loops make of a sub-evaluation: their matches are convertible with an
   [rbind], which is how [apply rbind_rel] (and the two lemmas after it) unify with goals that show a plain match.
   For that [rbind] spells out the branches that pass a result on: Ref's [| other => other], on an application, is
   elaborated to the constructors, whereas here, on the variable [r], it would return [r]. *)
Definition rbind (r : rres) (kf : rmu -> rres) (ko : val -> rsig -> scope -> rmu -> rres) : rres :=
  match r with
  | RFail m => kf m
  | ROk v g sc m => ko v g sc m
  | RPanic pv m pos R => RPanic pv m pos R
  | ROut => ROut
  end.

(* the fuel of the right-hand evaluation: the same, or in the lax reading at least as much *)
Definition fuel_le (lax : Prop) (n n' : nat) : Prop := n' = n \/ lax /\ n <= n'.

Lemma fuel_le_S lax n n' : fuel_le lax (S n) n' -> exists k, n' = S k /\ fuel_le lax n k.
Proof. unfold fuel_le. destruct n' as [|k]; [lia|]. exists k. intuition lia. Qed.

Lemma rres_rel_refl lax (V : val -> val -> Prop) (Q : rmu -> rmu -> Prop) r :
  (forall v, V v v) -> (forall m, Q m m) -> rres_rel lax V Q r r.
Proof. destruct r; cbn; auto. Qed.

Lemma rres_rel_strict lax V Q a b : rres_rel lax V Q a b -> a <> ROut -> rres_rel False V Q a b.
Proof. intros X Hd. destruct a; [destruct b; exact X ..| congruence]. Qed.

Lemma rres_rel_eq a b : rres_rel False eq eq a b -> a = b.
Proof. destruct a, b; cbn; try contradiction; intuition congruence. Qed.

Section Rel.
  Variable c : rdata.
  Variables (lax : Prop) (Q : rmu -> rmu -> Prop).

  Lemma rres_rel_out V b : lax -> rres_rel lax V Q ROut b.
  Proof. destruct b; cbn; auto. Qed.

  Lemma rrepres_rel_out b : lax -> rrepres_rel lax Q RepOut b.
  Proof. destruct b; cbn; auto. Qed.

  Lemma rbind_rel V r1 r2 kf1 kf2 ko1 ko2 :
    rres_rel lax eq Q r1 r2 ->
    (forall m1 m2, Q m1 m2 -> rres_rel lax V Q (kf1 m1) (kf2 m2)) ->
    (forall v g sc m1 m2, Q m1 m2 -> rres_rel lax V Q (ko1 v g sc m1) (ko2 v g sc m2)) ->
    rres_rel lax V Q (rbind r1 kf1 ko1) (rbind r2 kf2 ko2).
  Proof.
    intros X Hf Ho. destruct r1, r2; try contradiction; cbn [rbind]; auto using rres_rel_out.
    destruct X as (-> & -> & -> & X). auto.
  Qed.

  Lemma rrep_bind_rel r1 r2 k1 k2 :
    rrepres_rel lax Q r1 r2 ->
    (forall vs g m1 m2, Q m1 m2 -> rres_rel lax eq Q (k1 vs g m1) (k2 vs g m2)) ->
    rres_rel lax eq Q
      (match r1 with RepDone vs g m => k1 vs g m | RepPanic pv m pos R => RPanic pv m pos R | RepOut => ROut end)
      (match r2 with RepDone vs g m => k2 vs g m | RepPanic pv m pos R => RPanic pv m pos R | RepOut => ROut end).
  Proof.
    intros X Hk. destruct r1, r2; try contradiction; auto using rres_rel_out.
    destruct X as (-> & -> & X). auto.
  Qed.

  Lemma rblk_bind_rel {A} (b1 b2 : (A * option bytes * store * rmu) + (bytes * rmu)) k1 k2 pos R :
    rblk_rel Q b1 b2 ->
    (forall r err st m1 m2, Q m1 m2 -> rres_rel lax eq Q (k1 r err st m1) (k2 r err st m2)) ->
    rres_rel lax eq Q (match b1 with inl (r, err, st, m) => k1 r err st m | inr (pv, m) => RPanic pv m pos R end)
                      (match b2 with inl (r, err, st, m) => k2 r err st m | inr (pv, m) => RPanic pv m pos R end).
  Proof.
    intros X Hk. destruct b1 as [[[[r1 e1] s1] n1]|[pv1 n1]], b2 as [[[[r2 e2] s2] n2]|[pv2 n2]]; try contradiction.
    - destruct X as (-> & -> & -> & X). auto.
    - destruct X as (-> & X). cbn. auto.
  Qed.

  Hypothesis Qlog : forall e m1 m2, Q m1 m2 -> Q (log e m1) (log e m2).

  Lemma land_rel R o m1 m2 : Q m1 m2 -> Q (land c R o m1) (land c R o m2).
  Proof. unfold land. destruct (rune_at c o) as [r w]. destruct (_ && _); auto. Qed.

  Lemma step_rune_rel R o m1 m2 ok : Q m1 m2 -> ropt_rel Q (step_rune c R o m1 ok) (step_rune c R o m2 ok).
  Proof.
    intros Hm. unfold step_rune. destruct (rune_at c o) as [r w]. destruct (Nat.eqb w 0); [exact I|].
    destruct (ok r); cbn; auto using land_rel.
  Qed.

  Lemma lit_match_rel R ic rs : forall o m1 m2, Q m1 m2 ->
    ropt_rel Q (fst (lit_match c R ic rs o m1)) (fst (lit_match c R ic rs o m2)) /\
    Q (snd (lit_match c R ic rs o m1)) (snd (lit_match c R ic rs o m2)).
  Proof.
    induction rs as [|w rs IHrs]; intros o m1 m2 Hm; cbn [lit_match].
    - cbn. auto.
    - pose proof (step_rune_rel R o m1 m2 (fun r => Z.eqb (if ic then to_lower (rU c) r else r) w) Hm) as X.
      destruct (step_rune c R o m1 _) as [[o1 n1]|], (step_rune c R o m2 _) as [[o2 n2]|]; try contradiction.
      + destruct X as [-> X]. apply IHrs. exact X.
      + auto.
  Qed.

  Lemma term_result_rel R inv want sc g m1 m2 r1 r2 f1 f2 : ropt_rel Q r1 r2 -> Q f1 f2 ->
    rres_rel lax eq Q (term_result c R inv want sc g m1 r1 f1) (term_result c R inv want sc g m2 r2 f2).
  Proof.
    intros X F. unfold term_result. destruct r1 as [[o1 n1]|], r2 as [[o2 n2]|]; cbn [rres_rel]; auto.
    destruct X as [-> X]. auto.
  Qed.

  Lemma log_err_rel err pos R m1 m2 : Q m1 m2 -> Q (log_err err pos R m1) (log_err err pos R m2).
  Proof. destruct err; cbn [log_err]; auto. Qed.

  (* a kind of code block, run in the contexts built from Q-related records *)
  Definition rblk_ok {A} (f : cid -> ctx -> cbout A) : Prop :=
    forall k id text pos sc g m1 m2, Q m1 m2 ->
      rblk_rel Q (run_block k id f (block_ctx_ref c id text pos sc g m1) m1)
                 (run_block k id f (block_ctx_ref c id text pos sc g m2) m2).

  (* ... which is no condition on the blocks when Q-related records hold the same global store *)
  Lemma rblk_ok_gs : (forall m1 m2, Q m1 m2 -> u_gs m1 = u_gs m2) ->
    (forall gs e m1 m2, Q m1 m2 -> Q (with_gs gs (log e m1)) (with_gs gs (log e m2))) ->
    forall A (f : cid -> ctx -> cbout A), rblk_ok f.
  Proof.
    intros Hgs Hw A f k id text pos sc g m1 m2 Hm. unfold block_ctx_ref, run_block. rewrite (Hgs _ _ Hm).
    destruct (f id _); cbn; auto.
  Qed.

  Hypothesis Hact : rblk_ok (ce_act (rE c)).
  Hypothesis Hpred : rblk_ok (ce_pred (rE c)).
  Hypothesis Hstate : rblk_ok (ce_state (rE c)).

  Definition ev_rel (ev1 ev2 : evT) : Prop :=
    forall H R inv e sc g m1 m2, Q m1 m2 -> rres_rel lax eq Q (ev1 H R inv e sc g m1) (ev2 H R inv e sc g m2).

  Section Ev.
    Variables ev1 ev2 : evT.
    Hypothesis Hev : ev_rel ev1 ev2.
    Variables (H : handlers) (R : option rule) (inv : bool).

    (* the accumulators may differ, as long as V cannot tell the lists they stand for apart *)
    Lemma rseq_rel (V : val -> val -> Prop) :
      (forall v l1 l2, V (VList l1) (VList l2) -> V (VList (l1 ++ [v])) (VList (l2 ++ [v]))) ->
      forall es acc1 acc2 sc g m1 m2, V (VList (rev acc1)) (VList (rev acc2)) -> Q m1 m2 ->
        rres_rel lax V Q (rseq ev1 H R inv es acc1 sc g m1) (rseq ev2 H R inv es acc2 sc g m2).
    Proof.
      intros HV. induction es as [|e es IHes]; intros acc1 acc2 sc g m1 m2 Ha Hm; cbn [rseq].
      - cbn. auto.
      - apply rbind_rel; [apply Hev; exact Hm | auto |].
        intros v g' sc' n1 n2 Hn. apply IHes; [apply HV; exact Ha | exact Hn].
    Qed.

    Lemma ralt_rel es : forall sc g m1 m2, Q m1 m2 ->
      rres_rel lax eq Q (ralt ev1 H R inv es sc g m1) (ralt ev2 H R inv es sc g m2).
    Proof.
      induction es as [|e es IHes]; intros sc g m1 m2 Hm; cbn [ralt].
      - exact Hm.
      - apply rbind_rel; [apply Hev; exact Hm | intros; cbn; auto ..].
    Qed.

    Lemma rrep_rel e : forall n n' acc g m1 m2, fuel_le lax n n' -> Q m1 m2 ->
      rrepres_rel lax Q (rrep ev1 H R inv n e acc g m1) (rrep ev2 H R inv n' e acc g m2).
    Proof.
      induction n as [|n IHn]; intros n' acc g m1 m2 Hn Hm.
      - destruct Hn as [-> | [L _]]; [exact I | apply rrepres_rel_out; exact L].
      - destruct (fuel_le_S _ _ _ Hn) as (k & -> & Hk). cbn [rrep].
        pose proof (Hev H R inv e [] g m1 m2 Hm) as X.
        destruct (ev1 H R inv e [] g m1), (ev2 H R inv e [] g m2); try contradiction;
          auto using rrepres_rel_out; cbn [rrepres_rel]; auto.
        destruct X as (-> & -> & _ & X). apply IHn; assumption.
    Qed.

    Lemma rthrow_rel l hs : forall sc g m1 m2, Q m1 m2 ->
      rres_rel lax eq Q (rthrow ev1 H R inv l hs sc g m1) (rthrow ev2 H R inv l hs sc g m2).
    Proof.
      induction hs as [|[ls rc] hs IHhs]; intros sc g m1 m2 Hm; cbn [rthrow].
      - exact Hm.
      - destruct (mem_bytes l ls); [|apply IHhs; exact Hm].
        apply rbind_rel; [apply Hev; exact Hm | intros; cbn; auto ..].
    Qed.

    Lemma body_rel lf lf' e sc g m1 m2 : fuel_le lax lf lf' -> Q m1 m2 ->
      rres_rel lax eq Q (reval_body c ev1 lf H R inv e sc g m1) (reval_body c ev2 lf' H R inv e sc g m2).
    Proof.
      intros Hlf Hm.
      destruct e as [nid rs ic want | nid cv chars ranges classes ic cinv tb | nid | nid es | nid es | nid e' | nid e' | nid e'
                    | nid e' | nid e' | nid l e' | nid id e' | nid id | nid id | nid id | nid nm | nid e' rc ls | nid l];
        cbn [reval_body].
      - pose proof (lit_match_rel R ic rs (g_off g) m1 m2 Hm) as [X F].
        destruct (lit_match c R ic rs (g_off g) m1), (lit_match c R ic rs (g_off g) m2). apply term_result_rel; assumption.
      - apply term_result_rel; [apply step_rune_rel|]; exact Hm.
      - apply term_result_rel; [apply step_rune_rel|]; exact Hm.
      - apply (rseq_rel eq); [congruence | reflexivity | exact Hm].
      - apply ralt_rel. exact Hm.
      - apply rrep_bind_rel; [apply rrep_rel; assumption|].
        intros vs g' n1 n2 Hn. cbn. auto.
      - apply rrep_bind_rel; [apply rrep_rel; assumption|].
        intros vs g' n1 n2 Hn. destruct vs; cbn; auto.
      - (* e?, &e, !e, l:e: what follows the sub-evaluation is a constructor *)
        apply rbind_rel; [apply Hev; exact Hm | intros; cbn; auto ..].
      - apply rbind_rel; [apply Hev; exact Hm | intros; cbn; auto ..].
      - apply rbind_rel; [apply Hev; exact Hm | intros; cbn; auto ..].
      - apply rbind_rel; [apply Hev; exact Hm | intros; cbn; auto ..].
      - apply rbind_rel; [apply Hev; exact Hm | auto |].
        intros v g' sc' n1 n2 Hn. apply rblk_bind_rel; [apply Hact; exact Hn|].
        intros r err st k1 k2 Hk. cbn. auto using log_err_rel.
      - apply rblk_bind_rel; [apply Hpred; exact Hm|].
        intros r err st k1 k2 Hk. destruct r; cbn; auto using log_err_rel.
      - apply rblk_bind_rel; [apply Hpred; exact Hm|].
        intros r err st k1 k2 Hk. destruct r; cbn; auto using log_err_rel.
      - apply rblk_bind_rel; [apply Hstate; exact Hm|].
        intros r err st k1 k2 Hk. cbn. auto using log_err_rel.
      - destruct nm as [|b nm]; [cbn; auto|].
        destruct (find_rule (b :: nm) (rG c)) as [r|]; [|cbn; auto].
        apply rbind_rel; [apply Hev; exact Hm | intros; cbn; auto ..].
      - apply Hev. exact Hm.
      - apply rthrow_rel. exact Hm.
    Qed.
  End Ev.

  Hypothesis Qtick : forall m1 m2, Q m1 m2 -> Q (tick m1) (tick m2).
  (* there is no budget, or related records count alike *)
  Hypothesis Qbud : forall m1 m2, Q m1 m2 -> over_budget c (u_cnt (tick m1)) = over_budget c (u_cnt (tick m2)).

  Theorem reval_rel : forall f f', fuel_le lax f f' -> ev_rel (reval c f) (reval c f').
  Proof.
    induction f as [|f IHf]; intros f' Hf H R inv e sc g m1 m2 Hm.
    - destruct Hf as [-> | [L _]]; [exact I | apply rres_rel_out; exact L].
    - destruct (fuel_le_S _ _ _ Hf) as (k & -> & Hk). rewrite !reval_S, (Qbud _ _ Hm).
      destruct (over_budget c _); [cbn; auto|].
      apply body_rel; auto.
  Qed.
End Rel.

Lemma ev_rel_eq lax ev : ev_rel lax eq ev ev.
Proof. intros H R inv e sc g m1 m2 <-. apply rres_rel_refl; reflexivity. Qed.

Section Mono.
  Variable c : rdata.

  Definition extends (ev ev' : evT) : Prop :=
    forall H R inv e sc g m, ev H R inv e sc g m <> ROut -> ev' H R inv e sc g m = ev H R inv e sc g m.

  Lemma extends_rel ev ev' : extends ev ev' -> ev_rel True eq ev ev'.
  Proof.
    intros Hext H R inv e sc g m _ <-. specialize (Hext H R inv e sc g m).
    destruct (ev H R inv e sc g m); [rewrite Hext by discriminate; cbn; auto ..|apply rres_rel_out; exact I].
  Qed.

  Section Step.
    Variables ev ev' : evT.
    Hypothesis Hext : extends ev ev'.

    Lemma rrep_mono_same H R inv e n : forall acc g m,
      rrep ev H R inv n e acc g m <> RepOut -> rrep ev' H R inv n e acc g m = rrep ev H R inv n e acc g m.
    Proof using Hext.
      intros acc g m.
      pose proof (rrep_rel True eq ev ev' (extends_rel ev ev' Hext) H R inv e n n acc g m m (or_introl eq_refl) eq_refl) as X.
      destruct (rrep ev _ _ _ _ _ _ _ _), (rrep ev' _ _ _ _ _ _ _ _); cbn in X; try contradiction; intuition congruence.
    Qed.
  End Step.

  Theorem reval_mono_le f f' H R inv e sc g m : f <= f' ->
    reval c f H R inv e sc g m <> ROut -> reval c f' H R inv e sc g m = reval c f H R inv e sc g m.
  Proof.
    intros Hle Hd. symmetry. apply rres_rel_eq, (rres_rel_strict True); [|exact Hd].
    apply (reval_rel c True eq);
      [congruence | apply rblk_ok_gs; congruence .. | congruence | congruence | right; auto | reflexivity].
  Qed.
End Mono.
