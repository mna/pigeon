(* The unary invariant of the run-time model: what it says; InvStep.v proves it (parseExprWrap_inv), by
   induction on fuel over all 18 expression kinds.  From it follow:
   - C01: an expression that fails consumes nothing;
   - C02: (rn, w, cached suffix) of the save point are a function of the offset;
   - C05: failure restores the state store (when the template has one);
   - C11: the error list only grows;   C16: the expression counter obeys the budget;
   - the variable / rule / recovery stacks are balanced. *)
From PV Require Import Lib.Base Syntax.RGrammar Model.PState Model.Runtime
  Proofs.ReadProofs.

Section Inv.
  Variable c : cfg.

  (* a stored result ends at a coherent save point, a failure where it started, a success not before: what a hit needs
     to be a Post *)
  Definition entry_ok (en : nat * mkey * rtuple) : Prop :=
    let '(o, _, r) := en in
    sp_ok (cData c) (rt_end r) /\
    (rt_b r = false -> offset (sp_pos (rt_end r)) = o) /\
    o <= offset (sp_pos (rt_end r)).

  Definition memo_ok (m : list (nat * mkey * rtuple)) : Prop := Forall entry_ok m.

  Definition cnt_ok (s : pstate) : Prop :=
    o_maxexpr (cO c) = 0%N \/ (exprCnt s <= o_maxexpr (cO c))%N.

  Record I (s : pstate) : Prop := mkI {
    I_pt : sp_ok (cData c) (pt s);
    I_memo : memo_ok (memo s);
    I_cnt : cnt_ok s
  }.

  (* monotone components: survive failure and backtracking *)
  Record Mono (s s' : pstate) : Prop := mkMono {
    M_errs : exists l, errs s' = errs s ++ l;
    M_cnt : (exprCnt s <= exprCnt s')%N;
    M_trace : exists l, trace s' = l ++ trace s;
    M_mf : offset (maxFailPos s) <= offset (maxFailPos s')
  }.

  (* balanced components; of the variable stack only tail and length, since binding a label rewrites the top frame *)
  Record Frame (s s' : pstate) : Prop := mkFrame {
    F_vtl : tl (vstack s') = tl (vstack s);
    F_vlen : length (vstack s') = length (vstack s);
    F_rstack : rstack s' = rstack s;
    F_rcv : rcvstack s' = rcvstack s;
    F_inv : maxFailInvert s' = maxFailInvert s
  }.

  Definition Post (s : pstate) (b : bool) (s' : pstate) : Prop :=
    I s' /\ Mono s s' /\ Frame s s' /\ cur_off s <= cur_off s' /\
    (b = false -> cur_off s' = cur_off s /\ (has_state (cT c) = true -> st s' = st s)).

  (* after a panic; the budget test runs after the count, so the panic it raises leaves the counter one above the budget *)
  Definition PostP (s s' : pstate) : Prop :=
    Mono s s' /\ (o_maxexpr (cO c) = 0%N \/ (exprCnt s' <= o_maxexpr (cO c) + 1)%N).

  Definition res_spec (s : pstate) (r : Res (val * bool)) : Prop :=
    match r with
    | Ok (_, b) s' => Post s b s'
    | Panic _ s' => PostP s s'
    | OutOfFuel => True
    end.

  Definition wrap_spec (wrap : expr -> M (val * bool)) : Prop :=
    forall e s, I s -> res_spec s (wrap e s).

  Lemma Mono_refl s : Mono s s.
  Proof. constructor; try lia; exists []; [rewrite app_nil_r|]; reflexivity. Qed.

  Lemma Mono_trans a b d : Mono a b -> Mono b d -> Mono a d.
  Proof.
    intros [[l1 H1] H2 [t1 H3] H4] [[l2 H5] H6 [t2 H7] H8]. constructor; try lia.
    - exists (l1 ++ l2). rewrite H5, H1, app_assoc. reflexivity.
    - exists (t2 ++ t1). rewrite H7, H3, app_assoc. reflexivity.
  Qed.

  Lemma Frame_refl s : Frame s s.
  Proof. constructor; reflexivity. Qed.

  Lemma Frame_trans a b d : Frame a b -> Frame b d -> Frame a d.
  Proof. intros [] []. constructor; congruence. Qed.

  (* Mono reads a state only through [mono], Frame only through [frame]: a state change that leaves the tuple as it
     was (up to conversion, for any nest of setters) leaves the relation as it was *)
  Definition mono (s : pstate) := (errs s, exprCnt s, trace s, maxFailPos s).
  Definition frame (s : pstate) := (vstack s, rstack s, rcvstack s, maxFailInvert s).

  Lemma Mono_same a b a' b' : mono a' = mono a -> mono b' = mono b -> Mono a b -> Mono a' b'.
  Proof.
    intros Ea Eb [M1 M2 M3 M4]. injection Ea as a1 a2 a3 a4. injection Eb as b1 b2 b3 b4.
    constructor; [rewrite a1, b1 | rewrite a2, b2 | rewrite a3, b3 | rewrite a4, b4]; assumption.
  Qed.

  Lemma Frame_same a b b' : frame b' = frame b -> Frame a b -> Frame a b'.
  Proof. intros E [F1 F2 F3 F4 F5]. injection E as E1 E2 E3 E4. constructor; congruence. Qed.

  Lemma restore_off p s : cur_off (restore p s) = offset (sp_pos p).
  Proof. unfold restore, cur_off. destruct (Nat.eqb_spec (offset (sp_pos p)) (offset (sp_pos (pt s)))); auto. Qed.

  Lemma addErrAt_other m p ex s :
    errs (addErrAt c m p ex s) = errs s ++ [mkPerr m p (err_prefix c p s) ex] /\
    exprCnt (addErrAt c m p ex s) = exprCnt s /\ trace (addErrAt c m p ex s) = trace s /\
    maxFailPos (addErrAt c m p ex s) = maxFailPos s /\ vstack (addErrAt c m p ex s) = vstack s /\
    rstack (addErrAt c m p ex s) = rstack s /\ rcvstack (addErrAt c m p ex s) = rcvstack s /\
    maxFailInvert (addErrAt c m p ex s) = maxFailInvert s /\ memo (addErrAt c m p ex s) = memo s /\
    st (addErrAt c m p ex s) = st s /\ gs (addErrAt c m p ex s) = gs s /\ pt (addErrAt c m p ex s) = pt s.
  Proof. repeat split. Qed.

  Lemma addErrAt_Mono m p ex s : Mono s (addErrAt c m p ex s).
  Proof. constructor; cbn; [eexists; reflexivity | lia | exists []; reflexivity | lia]. Qed.

  Lemma addErrAt_Frame m p ex s : Frame s (addErrAt c m p ex s).
  Proof. constructor; reflexivity. Qed.

  Lemma addErrAt_I m p ex s : I s -> I (addErrAt c m p ex s).
  Proof. intros [A B C]. constructor; auto. Qed.
End Inv.
