(* Refinement: the run-time model (mutation + explicit restore) simulates the
   value-passing specification Ref, by induction on fuel over all 18 kinds.
   Scope (SimFinal.impl_refines_ref): Memoize off, no left-recursive rules, a template with a state store (or without
   one, when no block touches the store).  The hypotheses name exactly the quirks of the pinned tree:
   literal U+FFFD at EOF, Basic-Latin table against the general procedure, stale predicate context, recovery-expression scope. *)
From PV Require Import Lib.Base Syntax.RGrammar Syntax.Code Model.PState Model.Runtime Spec.Ref Spec.RefParse
  Proofs.PosProofs Proofs.Inv.

Section Sim.
  Variable c : cfg.
  Let d := cData c.

  Definition lit_ok (rs : list rune) (ic : bool) : Prop :=
    q_lit_eof (cQ c) = false \/ ~ In (if ic then to_lower (cU c) RuneError else RuneError) rs.

  Definition table_ok (chars ranges : list rune) (classes : list bytes) (ic inv : bool) (table : list bool) : Prop :=
    t_basiclatin (cT c) = false \/
    forall r, (0 <= r < 128)%Z ->
      negb (Bool.eqb (nth (Z.to_nat r) table false) inv) = class_decide (cU c) chars ranges classes ic inv r.

  (* expressions whose evaluation neither reads nor writes the current label scope *)
  Definition scope_closed (e : expr) : bool :=
    match e with
    | ELit _ _ _ _ | ECls _ _ _ _ _ _ _ _ | EAny _ | EAlt _ _ | EStar _ _ | EPlus _ _
    | EOpt _ _ | EAnd _ _ | ENot _ _ | ERef _ _ => true
    | _ => false
    end.

  Definition rc_ok (rc : expr) : Prop := q_recover_scope (cQ c) = false \/ scope_closed rc = true.

  Fixpoint wf_e (e : expr) : Prop :=
    match e with
    | ELit _ rs ic _ => lit_ok rs ic
    | ECls _ _ chars ranges classes ic inv table => table_ok chars ranges classes ic inv table
    | ESeq _ es | EAlt _ es => (fix all (l : list expr) := match l with [] => True | x :: l' => wf_e x /\ all l' end) es
    | EStar _ e' | EPlus _ e' | EOpt _ e' | EAnd _ e' | ENot _ e' | ELab _ _ e' | EAct _ _ e' => wf_e e'
    | ERec _ e' rc _ => wf_e e' /\ wf_e rc /\ rc_ok rc
    | EStC _ _ => has_state (cT c) = true       (* the builder sets GlobalState when a state block exists *)
    | _ => True
    end.

  (* wf_e (ESeq n es) and wf_e (EAlt n es) are convertible with wf_list es *)
  Fixpoint wf_list (l : list expr) : Prop := match l with [] => True | x :: l' => wf_e x /\ wf_list l' end.

  Definition H_wf (H : handlers) : Prop := Forall (fun h => wf_e (snd h) /\ rc_ok (snd h)) H.
  Definition G_wf : Prop := Forall (fun r => wf_e (r_expr r) /\ r_leftrec r = false) (cG c).

  (* contexts that a block of kind k is assumed not to tell apart: predicate and state blocks may not read c.text / c.pos *)
  Definition ctx_eqv (k : bkind) (x y : ctx) : Prop :=
    match k with
    | KAct => x = y
    | _ => c_args x = c_args y /\ c_state x = c_state y /\ c_gstore x = c_gstore y
    end.

  (* ... which is this assumption on the blocks *)
  Definition env_ctxfree : Prop :=
    (forall id x y, ctx_eqv KAnd x y -> ce_pred (cE c) id x = ce_pred (cE c) id y) /\
    (forall id x y, ctx_eqv KState x y -> ce_state (cE c) id x = ce_state (cE c) id y).

  (* blocks that never change the state store (in a template without a store the Go
     compiler enforces this: the field does not exist) *)
  Definition out_st_same {A} (o : cbout A) (x : ctx) : Prop :=
    match o with CbRet _ _ st' _ | CbPanic _ st' _ => st' = c_state x end.

  Definition env_state_free : Prop :=
    (forall id x, out_st_same (ce_act (cE c) id x) x) /\
    (forall id x, out_st_same (ce_pred (cE c) id x) x) /\
    (forall id x, out_st_same (ce_state (cE c) id x) x).

  Definition state_ok : Prop := has_state (cT c) = true \/ (has_state (cT c) = false /\ env_state_free).

  Definition stale_ok : Prop := q_stale_ctx (cQ c) = false \/ env_ctxfree.

  Definition ev_eqv (a b : event) : Prop :=
    ev_kind a = ev_kind b /\ ev_cid a = ev_cid b /\ ctx_eqv (ev_kind a) (ev_ctx a) (ev_ctx b).

  (* failAt's bookkeeping of the farthest failure, as a fold over the relevant terminal attempts *)
  Definition mf_step (acc : position * list bytes) (t : position * bytes * bool) : position * list bytes :=
    let '(mp, me) := acc in
    let '(pos, want, inv) := t in
    if offset pos <? offset mp then acc
    else
      let '(mp1, me1) := if offset mp <? offset pos then (pos, []) else (mp, me) in
      (mp1, me1 ++ [if inv then b_bang ++ want else want]).

  Definition mf_fold (ts : list (position * bytes * bool)) : position * list bytes :=
    fold_left mf_step ts (mkPos 1 1 0, []).

  Record Sim (s : pstate) (sc : scope) (g : rsig) (m : rmu) (H : handlers) (R : option rule) (inv : bool) : Prop := mkSim {
    S_reach : reach d (pt s);
    S_off : cur_off s = g_off g;
    S_st : st s = g_st g;
    S_gs : gs s = u_gs m;
    S_errs : errs s = errs_of_log c (u_log m);
    S_trace : Forall2 ev_eqv (trace s) (blocks_of_log (u_log m));
    S_mf : (maxFailPos s, maxFailExpected s) = mf_fold (relevant_terms (u_log m));
    S_cnt : exprCnt s = u_cnt m;
    S_top : exists vs, vstack s = sc :: vs;
    S_rcv : rcvstack s = H;
    S_rule : hd_error (rstack s) = R;
    S_inv : maxFailInvert s = inv
  }.

  (* after a panic nothing is evaluated any more: only what parse still reads is related (position and rule, for the
     error it may record; errors, trace, counter, global store), not the store, the stacks or the farthest failure *)
  Record SimP (s : pstate) (m : rmu) (pos : position) (R : option rule) : Prop := mkSimP {
    P_pos : sp_pos (pt s) = pos;
    P_gs : gs s = u_gs m;
    P_errs : errs s = errs_of_log c (u_log m);
    P_trace : Forall2 ev_eqv (trace s) (blocks_of_log (u_log m));
    P_cnt : exprCnt s = u_cnt m;
    P_rule : hd_error (rstack s) = R
  }.

  Definition sim_res (sc : scope) (g : rsig) (H : handlers) (R : option rule) (inv : bool)
             (ri : Res (val * bool)) (rr : rres) : Prop :=
    match ri, rr with
    | Ok (v, true) s', ROk v' g' sc' m' => v = v' /\ Sim s' sc' g' m' H R inv
    | Ok (v, false) s', RFail m' => v = VNil /\ exists sc', Sim s' sc' g m' H R inv
    | Panic pv s', RPanic pv' m' pos R' => pv = pv' /\ SimP s' m' pos R'
    | OutOfFuel, ROut => True
    | _, _ => False
    end.

  (* What the induction on fuel carries: sim_res and two facts it cannot do without.  A scope-closed expression hands
     back the scope it was given, whereas any other may leave labels bound in the implementation's scope even when
     it fails (the "exists" of sim_res); and in a template without a store the specification must not change the
     store either. *)
  Inductive simr (closed : bool) (sc : scope) (g : rsig) (H : handlers) (R : option rule) (inv : bool)
    : Res (val * bool) -> rres -> Prop :=
  | Sr_ok v s' g' sc' m' : Sim s' sc' g' m' H R inv -> (closed = true -> sc' = sc) ->
      (has_state (cT c) = false -> g_st g' = g_st g) ->
      simr closed sc g H R inv (Ok (v, true) s') (ROk v g' sc' m')
  | Sr_fail s' sc' m' : Sim s' sc' g m' H R inv -> (closed = true -> sc' = sc) ->
      simr closed sc g H R inv (Ok (VNil, false) s') (RFail m')
  | Sr_panic pv s' m' pos R' : SimP s' m' pos R' -> simr closed sc g H R inv (Panic pv s') (RPanic pv m' pos R')
  | Sr_out : simr closed sc g H R inv OutOfFuel ROut.

  Lemma Sr_ok_same closed sc g H R inv v s' g' m' :
    Sim s' sc g' m' H R inv -> (has_state (cT c) = false -> g_st g' = g_st g) ->
    simr closed sc g H R inv (Ok (v, true) s') (ROk v g' sc m').
  Proof. intros S. exact (Sr_ok closed sc g H R inv v s' g' sc m' S (fun _ => eq_refl)). Qed.

  Lemma Sr_fail_same closed sc g H R inv s' m' :
    Sim s' sc g m' H R inv -> simr closed sc g H R inv (Ok (VNil, false) s') (RFail m').
  Proof. intros S. exact (Sr_fail closed sc g H R inv s' sc m' S (fun _ => eq_refl)). Qed.

  Lemma simr_res closed sc g H R inv ri rr : simr closed sc g H R inv ri rr -> sim_res sc g H R inv ri rr.
  Proof. intros [v s' g' sc' m' S _ _|s' sc' m' S _| |]; cbn; eauto. Qed.

  Definition sim_spec (wrap : expr -> M (val * bool))
             (ev : handlers -> option rule -> bool -> expr -> scope -> rsig -> rmu -> rres) : Prop :=
    forall e s sc g m H R inv, wf_e e -> H_wf H -> I c s -> Sim s sc g m H R inv ->
      sim_res sc g H R inv (wrap e s) (ev H R inv e sc g m).

  Definition simr_spec (wrap : expr -> M (val * bool))
             (ev : handlers -> option rule -> bool -> expr -> scope -> rsig -> rmu -> rres) : Prop :=
    forall e s sc g m H R inv, wf_e e -> H_wf H -> I c s -> Sim s sc g m H R inv ->
      simr (scope_closed e) sc g H R inv (wrap e s) (ev H R inv e sc g m).
End Sim.

Arguments S_reach {c s sc g m H R inv}.
Arguments S_off {c s sc g m H R inv}.
Arguments S_st {c s sc g m H R inv}.
Arguments S_gs {c s sc g m H R inv}.
Arguments S_errs {c s sc g m H R inv}.
Arguments S_trace {c s sc g m H R inv}.
Arguments S_mf {c s sc g m H R inv}.
Arguments S_cnt {c s sc g m H R inv}.
Arguments S_top {c s sc g m H R inv}.
Arguments S_rcv {c s sc g m H R inv}.
Arguments S_rule {c s sc g m H R inv}.
Arguments S_inv {c s sc g m H R inv}.

Lemma err_prefix_ref c pos s : err_prefix c pos s = ref_prefix c pos (hd_error (rstack s)).
Proof. unfold err_prefix. destruct (rstack s); reflexivity. Qed.
