(* Witness for C06: a memo hit on a label-binding expression skips the binding.
     S <- R "z" / "a" R ;  R <- Q x:A {x} ;  Q <- "a"? ;  A <- "b"     input "ab"
   (corpus/kf_memo_label.txt).  First alternative: R at 0 = Q "a", x:A "b", then "z" fails.
   Second alternative: "a", then R at 1: Q matches "", x:A at 1 is a memo hit: x is not bound. *)
From PV Require Import Lib.Base Syntax.RGrammar Syntax.Code Model.Runtime Spec.RefParse.
From Coq Require Import String.

Definition nm (s : string) : bytes := bytes_of_string s.
Definition u0 : ulib := mkUlib (fun r => r) (fun r => r) (fun _ => false) (fun _ _ => false).
Definition lx : label := nm "x".

(* the action returns its label x *)
Definition env_x : codeenv :=
  mkEnv (fun _ => [lx]) (fun _ c => CbRet (arg_lookup lx (c_args c)) None (c_state c) (c_gstore c))
        (fun _ c => CbRet true None (c_state c) (c_gstore c)) (fun _ c => CbRet tt None (c_state c) (c_gstore c)).

Definition lit1 (n : N) (ch : Z) (w : string) : expr := ELit n [ch] false (nm w).

Definition g_memo : grammar :=
  [ mkRule (nm "S") [] (EAlt 1%N [ESeq 2%N [ERef 3%N (nm "R"); lit1 4%N 122%Z """z"""]; ESeq 5%N [lit1 6%N 97%Z """a"""; ERef 7%N (nm "R")]]) false false;
    mkRule (nm "R") [] (EAct 8%N 1%N (ESeq 9%N [ERef 10%N (nm "Q"); ELab 11%N lx (ERef 12%N (nm "A"))])) false false;
    mkRule (nm "Q") [] (EOpt 13%N (lit1 14%N 97%Z """a""")) false false;
    mkRule (nm "A") [] (lit1 15%N 98%Z """b""") false false ].

Definition cfg_memo (q : quirks) (memo : bool) : cfg :=
  mkCfg q u0 (mkTmpl false false false false) (mkOpts memo false false true false 0%N [] [] [])
        [97; 98]%N g_memo env_x.

Definition value_of (o : outcome) : option val := match o with Returned v _ _ => Some v | _ => None end.
Definition rvalue_of (o : routcome) : option val := match o with RReturned v _ _ => Some v | _ => None end.

Definition expected : val := VList [VBytes [97%N]; VBytes [98%N]].

(* not memoising the results of label-binding expressions restores the equivalence on the witness *)
Definition no_label_memo : quirks := mkQuirks true true true true false true true.

(* Second witness: the expected set of the final report.
     S <- !A "x" / A ;  A <- "a"      input "b"
   A at 0 is first evaluated inside the ! predicate, where its failure is not an expectation; the second alternative
   reaches A at 0 again, outside: by default the failure of "a" is recorded, with Memoize(true) the hit records nothing. *)
Definition g_exp : grammar :=
  [ mkRule (nm "S") [] (EAlt 1%N [ESeq 2%N [ENot 3%N (ERef 4%N (nm "A")); lit1 5%N 120%Z """x"""]; ERef 6%N (nm "A")]) false false;
    mkRule (nm "A") [] (lit1 7%N 97%Z """a""") false false ].

Definition cfg_exp (q : quirks) (memo : bool) : cfg :=
  mkCfg q u0 (mkTmpl false false false false) (mkOpts memo false false true false 0%N [] [] [])
        [98]%N g_exp env_x.

Definition errors_of (o : outcome) : list bytes := match o with Returned _ es _ => map perr_string es | _ => [] end.
Definition rerrors_of (o : routcome) : list bytes := match o with RReturned _ es _ => map perr_string es | _ => [] end.

Definition both_expected : list bytes := [nm "1:1 (0): no match found, expected: ""a"" or ""x"""].
Definition only_x : list bytes := [nm "1:1 (0): no match found, expected: ""x"""].

(* not using the table inside ! predicates restores the equivalence on the witness *)
Definition no_expected_memo : quirks := mkQuirks true true true true true true false.
