(* Save points reachable by scanning from the start of the input are a function of
   their byte offset: [reach d p -> save_at d (offset (sp_pos p)) = p]. *)
From PV Require Import Lib.Base Syntax.RGrammar Model.PState Spec.Pos Proofs.ReadProofs.

Inductive chain : savepoint -> savepoint -> Prop :=
| chain_refl p : chain p p
| chain_step p q : sp_w p > 0 -> chain (adv p) q -> chain p q.

Definition reach (d : bytes) (p : savepoint) : Prop := chain (adv (save0 d)) p.

Lemma chain_snoc p q : chain p q -> sp_w q > 0 -> chain p (adv q).
Proof. induction 1; intros; apply chain_step; auto using chain_refl. Qed.

Lemma adv_off p : offset (sp_pos (adv p)) = offset (sp_pos p) + sp_w p.
Proof. apply adv_facts. Qed.

Lemma chain_off p q : chain p q -> offset (sp_pos p) <= offset (sp_pos q).
Proof. induction 1 as [p|p q Hw Hc IH]; [|rewrite adv_off in IH]; lia. Qed.

Lemma walk_chain p q : chain p q ->
  forall fuel, offset (sp_pos q) - offset (sp_pos p) <= fuel -> walk fuel p (offset (sp_pos q)) = q.
Proof.
  induction 1 as [p|p q Hw Hc IH]; intros fuel Hf.
  - destruct fuel; cbn; rewrite Nat.eqb_refl; reflexivity.
  - pose proof (chain_off _ _ Hc) as Ho. rewrite adv_off in Ho.
    destruct fuel as [|f]; [lia|]. cbn [walk].
    rewrite (proj2 (Nat.eqb_neq _ _)), (proj2 (Nat.eqb_neq (sp_w p) 0)) by lia.
    apply IH. rewrite adv_off. lia.
Qed.

Lemma chain_ok d p q : chain p q -> sp_ok d p -> sp_ok d q.
Proof.
  induction 1 as [p|p q Hw Hc IH]; intros Hp; [exact Hp|].
  apply IH. apply sp_ok_adv; [apply Hp | apply sp_ok_width; exact Hp].
Qed.

Lemma reach_ok d p : reach d p -> sp_ok d p.
Proof. intros H. eapply chain_ok; [exact H|]. apply sp_ok_adv; [reflexivity | cbn; lia]. Qed.

Theorem reach_save_at d p : reach d p -> save_at d (offset (sp_pos p)) = p.
Proof.
  intros H. apply walk_chain; [exact H|].
  destruct (reach_ok d p H) as (_ & _ & L). lia.
Qed.

Corollary reach_functional d p q :
  reach d p -> reach d q -> offset (sp_pos p) = offset (sp_pos q) -> p = q.
Proof. intros Hp Hq E. rewrite <- (reach_save_at d p Hp), <- (reach_save_at d q Hq), E. reflexivity. Qed.

Corollary reach_pos_of d p : reach d p -> sp_pos p = pos_of d (offset (sp_pos p)).
Proof. intros H. unfold pos_of. rewrite reach_save_at; auto. Qed.

Lemma reach_init d : reach d (adv (save0 d)).
Proof. apply chain_refl. Qed.

Lemma reach_adv d p : reach d p -> sp_w p > 0 -> reach d (adv p).
Proof. apply chain_snoc. Qed.
