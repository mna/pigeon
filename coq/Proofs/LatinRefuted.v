(* The Unicode library of the witnesses in Props/C15.v (with the i flag the table and the
   general procedure disagree).  It agrees with Go's unicode package on the runes involved
   (ASCII letters, U+212A KELVIN SIGN); the harness replays the witnesses on the real code. *)
From PV Require Import Lib.Base Syntax.RGrammar.
Local Open Scope Z_scope.

Definition toy_ulib : ulib :=
  mkUlib (fun r => if (65 <=? r) && (r <=? 90) then r + 32 else if r =? 8490 then 107 else r)
         (fun r => if (97 <=? r) && (r <=? 122) then r - 32 else r)
         (fun r => (97 <=? r) && (r <=? 122))
         (fun cl r => (* Lu restricted to Basic Latin *) (65 <=? r) && (r <=? 90)).
