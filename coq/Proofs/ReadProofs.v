(* Properties of [read] (static_code.go: func (p *parser) read()). *)
From PV Require Import Lib.Base Lib.Utf8 Syntax.RGrammar Model.PState Spec.Pos Model.Runtime Proofs.Utf8Proofs.

(* A savepoint is coherent with the input when its cached suffix is data[offset:],
   (rn, w) is what DecodeRune returns there, and the offset lies within the input. *)
Definition sp_ok (d : bytes) (p : savepoint) : Prop :=
  sp_rest p = skipn (offset (sp_pos p)) d /\ (sp_rn p, sp_w p) = decode (sp_rest p) /\
  offset (sp_pos p) <= length d.

Lemma adv_facts p :
  sp_rest (adv p) = skipn (sp_w p) (sp_rest p) /\
  offset (sp_pos (adv p)) = offset (sp_pos p) + sp_w p /\
  (sp_rn (adv p), sp_w (adv p)) = decode (sp_rest (adv p)).
Proof.
  unfold adv. destruct (decode (skipn (sp_w p) (sp_rest p))) as [rn n] eqn:Hd.
  destruct (Z.eqb rn 10); cbn; auto.
Qed.

Lemma read_pt_adv c s : pt (read c s) = adv (pt s).
Proof.
  unfold read. destruct (Z.eqb _ _ && Nat.eqb _ _); [destruct (o_allowinvalid (cO c))|]; reflexivity.
Qed.

Lemma read_pt c s :
  let p := pt s in
  let rest' := skipn (sp_w p) (sp_rest p) in
  sp_rest (pt (read c s)) = rest' /\
  offset (sp_pos (pt (read c s))) = offset (sp_pos p) + sp_w p /\
  (sp_rn (pt (read c s)), sp_w (pt (read c s))) = decode rest'.
Proof.
  cbv zeta. rewrite read_pt_adv. destruct (adv_facts (pt s)) as (A & B & C). rewrite <- A. auto.
Qed.

(* decode gives width 0 only on the empty rest, and the error rune there: is_eof is decided by the width alone *)
Lemma sp_ok_eof d p : sp_ok d p -> sp_w p = 0 -> sp_rn p = RuneError.
Proof.
  intros (_ & B & _) Hw. assert (Hs : snd (decode (sp_rest p)) = 0) by (rewrite <- B; exact Hw).
  apply decode_width_zero in Hs. rewrite Hs in B. injection B as -> _. reflexivity.
Qed.

(* asks less of p than sp_ok: the savepoint before the first read (save0) has decoded nothing yet *)
Lemma sp_ok_adv d p :
  sp_rest p = skipn (offset (sp_pos p)) d -> offset (sp_pos p) + sp_w p <= length d -> sp_ok d (adv p).
Proof.
  intros H Hl. destruct (adv_facts p) as (A & B & C). split; [|split; [exact C|]].
  - rewrite A, B, H. apply skipn_skipn'.
  - rewrite B. exact Hl.
Qed.

Lemma read_sp_ok c s :
  sp_rest (pt s) = skipn (offset (sp_pos (pt s))) (cData c) ->
  offset (sp_pos (pt s)) + sp_w (pt s) <= length (cData c) ->
  sp_ok (cData c) (pt (read c s)).
Proof. rewrite read_pt_adv. apply sp_ok_adv. Qed.

Lemma sp_ok_width d p : sp_ok d p -> offset (sp_pos p) + sp_w p <= length d.
Proof.
  intros (A & B & L). pose proof (decode_width_le (sp_rest p)) as Hw.
  rewrite <- B, A, skipn_length in Hw. cbn [snd] in Hw. lia.
Qed.

Lemma read_errs c s :
  let rest' := skipn (sp_w (pt s)) (sp_rest (pt s)) in
  (decode rest' = (RuneError, 1) /\ o_allowinvalid (cO c) = false /\
     exists e, errs (read c s) = errs s ++ [e] /\ pe_msg e = msg_invalid_encoding /\
               pe_pos e = sp_pos (pt (read c s)))
  \/ ((decode rest' <> (RuneError, 1) \/ o_allowinvalid (cO c) = true) /\ errs (read c s) = errs s).
Proof.
  cbv zeta. destruct (adv_facts (pt s)) as (A & _ & C). rewrite <- A, <- C. unfold read.
  destruct (Z.eqb _ _ && Nat.eqb _ _) eqn:E.
  - apply andb_true_iff in E as [->%Z.eqb_eq ->%Nat.eqb_eq]. destruct (o_allowinvalid (cO c)).
    + right. split; [right|]; reflexivity.
    + left. split; [reflexivity|]. split; [reflexivity|]. eexists. repeat split.
  - right. split; [left|reflexivity]. intros [= E1 E2]. rewrite E1, E2 in E. discriminate.
Qed.
