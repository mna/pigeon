(* Laws of the specification: Ref is a PEG semantics with labelled failures, not merely
   a second implementation.  Each law is a statement about Ref alone. *)
From PV Require Import Lib.Base Syntax.RGrammar Syntax.Code Model.PState Spec.Pos Model.Runtime Spec.Ref.

Section Laws.
  Variable c : rdata.
  Variable ev : handlers -> option rule -> bool -> expr -> scope -> rsig -> rmu -> rres.
  Variables (n : nat) (H : handlers) (R : option rule) (inv : bool).

  Lemma alt_first_match a rest sc g m v g' sc' m' :
    ev H R inv a [] g m = ROk v g' sc' m' ->
    ralt ev H R inv (a :: rest) sc g m = ROk v g' sc m'.
  Proof. intros E. cbn. rewrite E. reflexivity. Qed.

  Lemma alt_next a rest sc g m m' :
    ev H R inv a [] g m = RFail m' ->
    ralt ev H R inv (a :: rest) sc g m = ralt ev H R inv rest sc g m'.
  Proof. intros E. cbn. rewrite E. reflexivity. Qed.

  Lemma alt_none sc g m : ralt ev H R inv [] sc g m = RFail m.
  Proof. reflexivity. Qed.

  Lemma seq_values es : forall acc sc g m v g' sc' m',
    rseq ev H R inv es acc sc g m = ROk v g' sc' m' ->
    exists vs, v = VList (rev acc ++ vs) /\ length vs = length es.
  Proof.
    induction es as [|e es IH]; intros acc sc g m v g' sc' m' E; cbn in E.
    - inversion E. exists []. rewrite app_nil_r. auto.
    - destruct (ev H R inv e sc g m) as [m1|v1 g1 sc1 m1|pv1 m1 p1 r1|]; try discriminate.
      destruct (IH _ _ _ _ _ _ _ _ E) as [vs [Hv Hl]]. exists (v1 :: vs). cbn in Hv. rewrite <- app_assoc in Hv.
      split; [exact Hv | cbn [length]; rewrite Hl; reflexivity].
  Qed.

  Lemma seq_fail e es acc sc g m m' :
    ev H R inv e sc g m = RFail m' -> rseq ev H R inv (e :: es) acc sc g m = RFail m'.
  Proof. intros E. cbn. rewrite E. reflexivity. Qed.

  (* greedy repetition: star(e) = opt(seq(e, star(e))), unfolded *)
  Lemma rep_unfold_ok k e acc g m v g' sc' m' :
    ev H R inv e [] g m = ROk v g' sc' m' ->
    rrep ev H R inv (S k) e acc g m = rrep ev H R inv k e (v :: acc) g' m'.
  Proof. intros E. cbn. rewrite E. reflexivity. Qed.

  Lemma rep_unfold_stop k e acc g m m' :
    ev H R inv e [] g m = RFail m' ->
    rrep ev H R inv (S k) e acc g m = RepDone (rev acc) g m'.
  Proof. intros E. cbn. rewrite E. reflexivity. Qed.

  Lemma rep_values e : forall k acc g m vs g' m',
    rrep ev H R inv k e acc g m = RepDone vs g' m' -> exists ws, vs = rev acc ++ ws.
  Proof.
    induction k as [|k IH]; intros acc g m vs g' m' E; cbn in E; [discriminate|].
    destruct (ev H R inv e [] g m) as [m1|v1 g1 sc1 m1|pv1 m1 p1 r1|]; try discriminate.
    - inversion E. exists []. rewrite app_nil_r. reflexivity.
    - destruct (IH _ _ _ _ _ _ E) as [ws Hw]. exists (v1 :: ws). cbn in Hw. rewrite <- app_assoc in Hw. exact Hw.
  Qed.

  Lemma and_consumes_nothing nid e sc g m v g' sc' m' :
    reval_body c ev n H R inv (EAnd nid e) sc g m = ROk v g' sc' m' -> v = VNil /\ g' = g /\ sc' = sc.
  Proof. cbn. destruct (ev H R inv e [] g m); intros E; inversion E; auto. Qed.

  Lemma not_consumes_nothing nid e sc g m v g' sc' m' :
    reval_body c ev n H R inv (ENot nid e) sc g m = ROk v g' sc' m' -> v = VNil /\ g' = g /\ sc' = sc.
  Proof. cbn. destruct (ev H R (negb inv) e [] g m); intros E; inversion E; auto. Qed.

  Lemma not_inverts nid e sc g m :
    (forall v g' sc' m', ev H R (negb inv) e [] g m = ROk v g' sc' m' ->
        reval_body c ev n H R inv (ENot nid e) sc g m = RFail m') /\
    (forall m', ev H R (negb inv) e [] g m = RFail m' ->
        reval_body c ev n H R inv (ENot nid e) sc g m = ROk VNil g sc m').
  Proof. split; intros * E; cbn; rewrite E; reflexivity. Qed.

  Lemma opt_never_fails nid e sc g m m' :
    reval_body c ev n H R inv (EOpt nid e) sc g m <> RFail m'.
  Proof. cbn. destruct (ev H R inv e [] g m); discriminate. Qed.

  Lemma any_value nid sc g m v g' sc' m' :
    reval_body c ev n H R inv (EAny nid) sc g m = ROk v g' sc' m' ->
    v = VBytes (slice c (g_off g) (g_off g')) /\ g_st g' = g_st g /\ sc' = sc /\ g_off g < g_off g'.
  Proof.
    cbn [reval_body]. unfold step_rune. destruct (rune_at c (g_off g)) as [r w].
    destruct (Nat.eqb_spec w 0); [discriminate|]. intros [= <- <- <- _]. cbn [g_off g_st]. repeat split. lia.
  Qed.

  Lemma cls_value nid cv chars ranges classes ic cinv tb sc g m v g' sc' m' :
    reval_body c ev n H R inv (ECls nid cv chars ranges classes ic cinv tb) sc g m = ROk v g' sc' m' ->
    v = VBytes (slice c (g_off g) (g_off g')) /\ g_st g' = g_st g /\ sc' = sc /\
    class_decide (rU c) chars ranges classes ic cinv (fst (rune_at c (g_off g))) = true.
  Proof.
    cbn [reval_body fst]. unfold step_rune. destruct (rune_at c (g_off g)) as [r w].
    destruct (Nat.eqb_spec w 0); [discriminate|].
    destruct (class_decide (rU c) chars ranges classes ic cinv r) eqn:Ed; [|discriminate].
    intros [= <- <- <- _]. auto.
  Qed.

  Lemma lab_binds nid l e sc g m v g' sc' m' :
    reval_body c ev n H R inv (ELab nid l e) sc g m = ROk v g' sc' m' ->
    sc' = bind_scope l v sc.
  Proof. cbn. destruct (ev H R inv e [] g m); intros E; inversion E; auto. Qed.

  (* an action sees the matched text, the start position, the labels of its scope, and
     its state changes are discarded *)
  Lemma act_context nid id e sc g m g1 sc1 m1 v0 :
    ev H R inv e sc g m = ROk v0 g1 sc1 m1 ->
    let x := block_ctx_ref c id (slice c (g_off g) (g_off g1)) (pos_of (rData c) (g_off g)) sc1 g1 m1 in
    match ce_act (rE c) id x with
    | CbRet r err st' gs' =>
        exists m2, reval_body c ev n H R inv (EAct nid id e) sc g m = ROk r g1 sc1 m2 /\ u_gs m2 = gs'
    | CbPanic pv st' gs' =>
        exists m2, reval_body c ev n H R inv (EAct nid id e) sc g m = RPanic pv m2 (pos_of (rData c) (g_off g1)) R
    end.
  Proof.
    intros E. cbn. rewrite E. unfold run_block.
    destruct (ce_act (rE c) id _) as [r [msg|] st' gs'|pv st' gs']; eexists; split; reflexivity || auto.
  Qed.

  Lemma stc_keeps_state nid id sc g m :
    let x := block_ctx_ref c id [] (pos_of (rData c) (g_off g)) sc g m in
    forall r err st' gs', ce_state (rE c) id x = CbRet r err st' gs' ->
    exists m2, reval_body c ev n H R inv (EStC nid id) sc g m = ROk VNil (mkSig (g_off g) st') sc m2.
  Proof. intros x r err st' gs' E. cbn. unfold run_block. fold x. rewrite E. eexists. reflexivity. Qed.

  Lemma throw_innermost l ls rc hs sc g m v g' sc' m' :
    mem_bytes l ls = true -> ev H R inv rc [] g m = ROk v g' sc' m' ->
    rthrow ev H R inv l ((ls, rc) :: hs) sc g m = ROk v g' sc m'.
  Proof. intros Hm E. cbn. rewrite Hm, E. reflexivity. Qed.

  Lemma throw_fallthrough l ls rc hs sc g m m' :
    mem_bytes l ls = true -> ev H R inv rc [] g m = RFail m' ->
    rthrow ev H R inv l ((ls, rc) :: hs) sc g m = rthrow ev H R inv l hs sc g m'.
  Proof. intros Hm E. cbn. rewrite Hm, E. reflexivity. Qed.

  Lemma throw_skips_other_labels l ls rc hs sc g m :
    mem_bytes l ls = false ->
    rthrow ev H R inv l ((ls, rc) :: hs) sc g m = rthrow ev H R inv l hs sc g m.
  Proof. intros Hm. cbn. rewrite Hm. reflexivity. Qed.

  Lemma throw_unhandled l sc g m : rthrow ev H R inv l [] sc g m = RFail m.
  Proof. reflexivity. Qed.

  (* handlers are in force exactly while the guarded expression is evaluated *)
  Lemma rec_scopes_handler nid e rc ls sc g m :
    reval_body c ev n H R inv (ERec nid e rc ls) sc g m = ev ((ls, rc) :: H) R inv e sc g m.
  Proof. reflexivity. Qed.

  Lemma throw_uses_current_handlers nid l sc g m :
    reval_body c ev n H R inv (EThrow nid l) sc g m = rthrow ev H R inv l H sc g m.
  Proof. reflexivity. Qed.
End Laws.
