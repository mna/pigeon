(* The two readers of the grammar front-end recover what a printed text denotes.
   The class reader: every spelling of every member (raw, \], single-character escapes, \xNN,
   \uNNNN, \UNNNNNNNN, \NNN), when an escaped rune is never taken for the range operator.
   The reader of string literals: the same spellings, read as bytes.
   Both read numerals with take_digits; the round trip of an n-digit numeral is proved once,
   for every base and width, and \NNN is reduced to it. *)
From PV Require Import Lib.Base Lib.Utf8 Model.Front Model.FrontLit.
Local Open Scope Z_scope.

Lemma hexval_hexdigit d : 0 <= d < 16 -> hexval (hexdigit d) = Some d.
Proof.
  intros Hd. unfold hexval, hexdigit.
  destruct (d <? 10) eqn:E.
  - replace ((48 <=? 48 + d) && (48 + d <=? 57)) with true by lia. f_equal. lia.
  - replace ((48 <=? 87 + d) && (87 + d <=? 57)) with false by lia.
    replace ((97 <=? 87 + d) && (87 + d <=? 102)) with true by lia. f_equal. lia.
Qed.

Lemma take_digits_digits b n : 2 <= b <= 16 -> forall v acc rest, 0 <= v < b ^ Z.of_nat n ->
  take_digits b n acc (digits b n v ++ rest) = Some (acc * b ^ Z.of_nat n + v, rest).
Proof.
  intros Hb. induction n as [|n IH]; intros v acc rest Hv.
  - cbn. f_equal. f_equal. lia.
  - rewrite Nat2Z.inj_succ, Z.pow_succ_r in * by lia.
    set (p := b ^ Z.of_nat n) in *.
    assert (Hp : 0 < p) by (apply Z.pow_pos_nonneg; lia).
    assert (Hq : 0 <= v / p < b) by (split; [apply Z.div_pos | apply Z.div_lt_upper_bound]; lia).
    pose proof (Z.mod_pos_bound v p Hp) as Hm.
    cbn [digits app take_digits]. fold p.
    rewrite hexval_hexdigit by lia.
    replace (v / p <? b) with true by lia.
    rewrite IH by lia.
    f_equal. f_equal. rewrite (Z.div_mod v p) at 3 by lia. ring.
Qed.

(* \NNN is not left to take_digits alone: after looking for the letters, both readers test the next rune
   for an octal digit themselves and start take_digits from its value.  That is reading one digit more. *)
Lemma octal_lead e l x : take_digits 8 3 0 (e :: l) = Some x ->
  (48 <=? e) && (e <=? 55) = true /\ take_digits 8 2 (e - 48) l = Some x /\
  (e =? r_rbrack) = false /\ (e =? r_p) = false /\ (e =? r_x) = false /\ (e =? r_u) = false /\ (e =? r_U) = false.
Proof.
  cbn [take_digits]. unfold hexval, r_rbrack, r_p, r_x, r_u, r_U.
  destruct ((48 <=? e) && (e <=? 57)) eqn:E1.
  - destruct (e - 48 <? 8) eqn:E; [|discriminate]. intros Hd. split; [lia|]. split; [exact Hd | lia].
  - destruct ((97 <=? e) && (e <=? 102)) eqn:E2; [replace (e - 87 <? 8) with false by lia; discriminate|].
    destruct ((65 <=? e) && (e <=? 70)) eqn:E3; [replace (e - 55 <? 8) with false by lia|]; discriminate.
Qed.

Lemma scan_octal f e l v l' chars classes : take_digits 8 3 0 (e :: l) = Some (v, l') ->
  scan (S f) (r_bslash :: e :: l) chars classes = scan f l' ((v, true) :: chars) classes.
Proof.
  intros (Ho & Hd & E1 & E2 & E3 & E4 & E5)%octal_lead.
  cbn [scan]. rewrite E1, E2, E3, E4, E5, Ho, Hd. reflexivity.
Qed.

Definition is_esc (s : spell) : bool := match s with SRaw => false | _ => true end.

Lemma scan_char f r s tl chars classes : spell_ok r s = true ->
  scan (S f) (print_char r s ++ tl) chars classes = scan f tl ((r, is_esc s) :: chars) classes.
Proof.
  intros Hok. destruct s; cbn [spell_ok is_esc print_char app] in *.
  (* \xNN, \uNNNN, \UNNNNNNNN *)
  3-5: (cbn [scan]; rewrite take_digits_digits by lia; reflexivity).
  - cbn [scan]. destruct (Z.eqb_spec r r_bslash) as [->|_]; [discriminate Hok | reflexivity].
  - (* each row of the table of escape letters *)
    revert Hok. unfold esc_letter.
    repeat (destruct (r =? _) eqn:E; [apply Z.eqb_eq in E; subst r; intros _; reflexivity | clear E]).
    discriminate.
  - apply scan_octal, (take_digits_digits 8 3); lia.
Qed.

Lemma take_until_rbrace_app name : forall acc tl,
  existsb (fun r => r =? r_rbrace) name = false ->
  take_until_rbrace (name ++ r_rbrace :: tl) acc = Some (rev acc ++ name, tl).
Proof.
  induction name as [|c name IH]; intros acc tl Hn.
  - rewrite app_nil_r. reflexivity.
  - apply orb_false_iff in Hn as [Hc Hn].
    cbn [app take_until_rbrace]. rewrite Hc. rewrite IH by exact Hn. cbn [rev]. rewrite <- app_assoc. reflexivity.
Qed.

(* what phase 1 (scan) hands to phase 2 (extract) for an item: its runes, each with whether it was
   written as an escape; the '-' of a range is a raw rune like any other *)
Definition flat_item (it : citem) : list (rune * bool) :=
  match it with
  | IChar r s => [(r, is_esc s)]
  | IRange lo sl hi sh => [(lo, is_esc sl); (r_dash, false); (hi, is_esc sh)]
  | IUni _ _ => []
  end.
Definition flat (items : list citem) : list (rune * bool) := concat (map flat_item items).

(* the steps scan takes over an item *)
Definition steps (it : citem) : nat := match it with IRange _ _ _ _ => 3 | _ => 1 end.

Lemma scan_item f it tl chars classes : item_ok it = true ->
  scan (steps it + f) (print_item it ++ tl) chars classes =
  scan f tl (rev (flat_item it) ++ chars) (match it with IUni n _ => n :: classes | _ => classes end).
Proof.
  intros Hok. destruct it as [r s | lo sl hi sh | name braced];
    cbn [item_ok steps Nat.add print_item flat_item rev app].
  - apply scan_char, Hok.
  - apply andb_true_iff in Hok as [[[Hlo Hhi]%andb_true_iff _]%andb_true_iff _].
    rewrite <- !app_assoc, scan_char by exact Hlo.
    (* the step over '-' is by computation *)
    apply (scan_char f hi sh), Hhi.
  - apply andb_true_iff in Hok as [[Hn%negb_true_iff _]%andb_true_iff Hb].
    destruct braced; cbn [print_item app].
    + rewrite <- app_assoc. cbn [app scan]. rewrite take_until_rbrace_app by exact Hn. reflexivity.
    + destruct name as [|c [|c2 name]]; try discriminate.
      apply negb_true_iff in Hb. cbn [app scan]. rewrite Hb. reflexivity.
Qed.

Lemma steps_le_length it : (steps it <= length (print_item it))%nat.
Proof.
  assert (Hc : forall r s, (1 <= length (print_char r s))%nat).
  { destruct s; cbn [print_char length]; try destruct (esc_letter r); cbn [length]; lia. }
  destruct it as [r s | lo sl hi sh | name braced]; cbn [steps print_item].
  - apply Hc.
  - rewrite !app_length. pose proof (Hc lo sl). pose proof (Hc hi sh). cbn [length]. lia.
  - destruct braced; cbn; lia.
Qed.

(* any fuel beyond the length of the text will do: parse_class gives one more *)
Lemma scan_items items : forall n chars classes, forallb item_ok items = true ->
  (length (concat (map print_item items)) <= n)%nat ->
  scan (S n) (concat (map print_item items)) chars classes =
  Some (rev chars ++ flat items, rev classes ++ denote_classes items).
Proof.
  induction items as [|it items IH]; intros n chars classes Hok Hn.
  - rewrite !app_nil_r. reflexivity.
  - cbn [forallb map concat] in *. apply andb_true_iff in Hok as [Hit Hok].
    rewrite app_length in Hn. pose proof (steps_le_length it) as Hc.
    replace (S n) with (steps it + S (n - steps it))%nat by lia.
    rewrite scan_item, IH by (assumption || lia).
    rewrite rev_app_distr, <- app_assoc.
    destruct it; cbn [rev app]; rewrite <- ?app_assoc; reflexivity.
Qed.

Definition only_classes (items : list citem) : bool :=
  forallb (fun it => match it with IUni _ _ => true | _ => false end) items.

(* where a raw '-' is a plain member: first (nothing collected yet), right after a range, or last *)
Fixpoint dash_ok (free : bool) (items : list citem) : bool :=
  match items with
  | [] => true
  | IChar r s :: rest => (plain r s || free || only_classes rest) && dash_ok false rest
  | IRange _ _ _ _ :: rest => dash_ok true rest
  | IUni _ _ :: rest => dash_ok free rest
  end.

Lemma extract_char q r esc l' wr cs rs :
  ((r =? r_dash) && negb wr && negb (q && esc)) = false \/ cs = [] \/ l' = [] ->
  extract q ((r, esc) :: l') false wr cs rs = extract q l' false false (r :: cs) rs.
Proof.
  intros H. cbn [extract]. destruct cs as [|c0 cs]; [reflexivity|]. destruct l' as [|x l']; [reflexivity|].
  destruct H as [H|[H|H]]; try discriminate. rewrite H. reflexivity.
Qed.

Lemma plain_cond r s wr : plain r s = true -> ((r =? r_dash) && negb wr && negb (true && is_esc s)) = false.
Proof. unfold plain. destruct (r =? r_dash), s, wr; (reflexivity || discriminate). Qed.

Lemma only_classes_flat items : only_classes items = true -> flat items = [].
Proof.
  induction items as [|[] items IH]; try discriminate; [reflexivity|]. exact IH.
Qed.

(* free: a raw '-' here would not be taken for the range operator (wasRange, or nothing collected) *)
Lemma extract_items items : forall free wr cs rs,
  forallb item_ok items = true -> dash_ok free items = true -> (free = true -> wr = true \/ cs = []) ->
  extract true (flat items) false wr cs rs = (rev cs ++ denote_chars items, rev rs ++ denote_ranges items).
Proof.
  induction items as [|it items IH]; intros free wr cs rs Hok Hdash Hfree.
  - rewrite !app_nil_r. reflexivity.
  - cbn [forallb] in Hok. apply andb_true_iff in Hok as [Hit Hok].
    unfold flat. cbn [map concat].
    fold (flat items) (denote_chars items) (denote_ranges items).
    destruct it as [r s | lo sl hi sh | name braced]; cbn [dash_ok flat_item app] in *.
    + apply andb_true_iff in Hdash as [Hd Hdash].
      rewrite extract_char.
      * rewrite (IH false) by (assumption || discriminate). cbn [rev]. rewrite <- app_assoc. reflexivity.
      * apply orb_true_iff in Hd as [[Hd|Hd]%orb_true_iff|Hd].
        -- left. apply plain_cond, Hd.
        -- destruct (Hfree Hd) as [-> | ->]; [left; destruct (r =? r_dash); reflexivity | right; left; reflexivity].
        -- right; right. apply only_classes_flat, Hd.
    + apply andb_true_iff in Hit as [[_ Hlo]%andb_true_iff _].
      rewrite extract_char by (left; apply plain_cond, Hlo).
      cbn [extract]. change (r_dash =? r_dash) with true. cbn [negb andb].
      rewrite (IH true) by (assumption || (intros _; left; reflexivity)).
      cbn [rev]. rewrite <- !app_assoc. reflexivity.
    + apply (IH free); assumption.
Qed.

Lemma strip_i_class l (ic : bool) : strip_i (l ++ [r_rbrack] ++ (if ic then [r_i] else [])) = (l ++ [r_rbrack], ic).
Proof.
  unfold strip_i. rewrite rev_app_distr. destruct ic; [|reflexivity].
  cbn [app rev]. rewrite rev_involutive. reflexivity.
Qed.

(* in a class that is not inverted a leading raw ^ would be read as the inversion mark *)
Definition lead_ok (items : list citem) (inv : bool) : bool :=
  inv || match concat (map print_item items) with r :: _ => negb (r =? r_caret) | [] => true end.

(* brackets, ^ and i around any body, for either reading of escaped runes *)
Lemma parse_class_brackets q body (ic inv : bool) :
  inv || match body with r :: _ => negb (r =? r_caret) | [] => true end = true ->
  parse_class q ([r_lbrack] ++ (if inv then [r_caret] else []) ++ body ++ [r_rbrack] ++ (if ic then [r_i] else [])) =
  match scan (S (length body)) body [] [] with
  | Some (chars, classes) => let '(cs, rs) := extract q chars false false [] [] in Some (mkClass cs rs classes ic inv)
  | None => None
  end.
Proof.
  intros Hlead. unfold parse_class.
  rewrite (app_assoc _ body), (app_assoc [r_lbrack]), strip_i_class. cbn [app]. rewrite removelast_last.
  destruct inv; [reflexivity|]. destruct body as [|r body]; [reflexivity|].
  apply negb_true_iff in Hlead. cbn [app]. rewrite Hlead. reflexivity.
Qed.

Lemma unq_octal f q e l v l' acc : take_digits 8 3 0 (e :: l) = Some (v, l') ->
  unq (S f) q (r_bslash :: e :: l) acc = unq f q l' (acc ++ [Z.to_N v]).
Proof.
  intros (Ho & Hd & _ & _ & E3 & E4 & E5)%octal_lead.
  cbn [unq]. rewrite E3, E4, E5, Ho, Hd. reflexivity.
Qed.

Lemma unq_elem f q e tl acc : (q =? r_dquote) || (q =? r_squote) = true -> lelem_ok q e = true ->
  unq (S f) q (print_lelem q e ++ tl) acc = unq f q tl (acc ++ denote_lelem e).
Proof.
  intros Hq Hok. destruct e as [r [] | b | b]; cbn [lelem_ok denote_lelem print_lelem app] in *.
  (* \uNNNN, \UNNNNNNNN, \xNN *)
  3-5: (unfold scalarb in Hok; cbn [unq]; rewrite take_digits_digits by lia; reflexivity).
  - cbn [unq]. replace (r =? r_bslash) with false by (unfold r_bslash in *; lia). reflexivity.
  - (* for either quote, each row of the table of escape letters *)
    revert Hok. unfold lesc_letter.
    apply orb_true_iff in Hq as [->%Z.eqb_eq | ->%Z.eqb_eq];
      repeat (destruct (r =? _) eqn:E; [apply Z.eqb_eq in E; subst r; intros _; reflexivity | clear E]);
      discriminate.
  - apply unq_octal, (take_digits_digits 8 3); lia.
Qed.

Lemma print_lelem_nonempty q e : (1 <= length (print_lelem q e))%nat.
Proof. destruct e as [r []|b|b]; cbn [print_lelem length]; try destruct (lesc_letter q r); cbn [length]; lia. Qed.

Lemma unq_elems q es : forall n acc, (q =? r_dquote) || (q =? r_squote) = true -> forallb (lelem_ok q) es = true ->
  (length (concat (map (print_lelem q) es)) <= n)%nat ->
  unq (S n) q (concat (map (print_lelem q) es)) acc = Some (acc ++ concat (map denote_lelem es)).
Proof.
  induction es as [|e es IH]; intros n acc Hq Hok Hn.
  - rewrite app_nil_r. reflexivity.
  - cbn [forallb map concat] in *. apply andb_true_iff in Hok as [He Hok]. rewrite app_length in Hn.
    pose proof (print_lelem_nonempty q e) as Hl.
    destruct n as [|n]; [lia|].
    rewrite unq_elem, IH by (assumption || lia). rewrite <- app_assoc. reflexivity.
Qed.
